(* C12: add_condition. With a fresh name (not defined in the rule, not referenced by the condition, not
   matched by any selector of the condition) the rewritten rule `name and (cond)` / `not name and (cond)`
   means: the added detection (negated) AND the original condition evaluated in the original rule.
   This is said of the specification's cexpr / ceval (Spec/Rewrite.v); that the text add_cond_text builds
   (Model/Transform.v) parses to this CAndE is not proved. fresh_in, fresh_env: premises of C12_add_condition. *)
From Coq Require Import NArith List Bool.
From PS Require Import Base.Chars Model.Transform Spec.Rewrite Proofs.CharsP.
Import ListNotations.
Open Scope N_scope.

Section CInd.
  Variable P : cexpr -> Prop.
  Hypothesis HId : forall n, P (CId n).
  Hypothesis HSel : forall a p, P (CSel a p).
  Hypothesis HNot : forall c, P c -> P (CNotE c).
  Hypothesis HAnd : forall l, Forall P l -> P (CAndE l).
  Hypothesis HOr : forall l, Forall P l -> P (COrE l).
  Fixpoint cexpr_ind' (c : cexpr) : P c :=
    let go := fix go (l : list cexpr) : Forall P l :=
                match l with [] => Forall_nil P | x :: r => Forall_cons x (cexpr_ind' x) (go r) end in
    match c with
    | CId n => HId n
    | CSel a p => HSel a p
    | CNotE c => HNot c (cexpr_ind' c)
    | CAndE l => HAnd l (go l)
    | COrE l => HOr l (go l)
    end.
End CInd.

Section AddCond.
Variable selm : str -> str -> bool.

Fixpoint fresh_in (name : str) (c : cexpr) : bool :=
  match c with
  | CId n => negb (str_eqb n name)
  | CSel _ pat => negb (selm pat name)
  | CNotE a => fresh_in name a
  | CAndE l | COrE l => forallb (fresh_in name) l
  end.
Definition fresh_env (name : str) (env : list (str * option bool)) : bool :=
  forallb (fun p => negb (str_eqb (fst p) name)) env.

Lemma lookup_snoc env name m n : str_eqb n name = false ->
  lookup_env (env ++ [(name, m)]) n = lookup_env env n.
Proof.
  intros H. unfold lookup_env. induction env as [|[k v] env IH]; cbn [app find fst].
  - rewrite str_eqb_sym, H. reflexivity.
  - destruct (str_eqb k n); [reflexivity | exact IH].
Qed.

Lemma ceval_fresh name m env c : fresh_in name c = true ->
  ceval selm (env ++ [(name, m)]) c = ceval selm env c.
Proof.
  induction c as [n | a p | c IH | l IH | l IH] using cexpr_ind'; cbn [fresh_in ceval]; intros H.
  1: apply lookup_snoc, negb_true_iff, H.
  1: { apply negb_true_iff in H. rewrite flat_map_app. cbn [flat_map fst snd]. rewrite H, !app_nil_r. reflexivity. }
  1: rewrite (IH H); reflexivity.
  all: rewrite Forall_forall in IH; rewrite forallb_forall in H; rewrite !flat_map_concat_map; do 2 f_equal;
    apply map_ext_in; intros x Hx; rewrite (IH x Hx (H x Hx)); reflexivity.
Qed.

Lemma lookup_new env name m : fresh_env name env = true -> lookup_env (env ++ [(name, m)]) name = m.
Proof.
  unfold lookup_env, fresh_env. induction env as [|[k v] env IH]; cbn [app find fst forallb]; intros H.
  - rewrite str_eqb_refl. reflexivity.
  - apply andb_true_iff in H. destruct H as [H1 H2]. apply negb_true_iff in H1. rewrite H1. exact (IH H2).
Qed.

Lemma dict_set_fresh {A} name (v : A) (l : list (str * A)) :
  forallb (fun p => negb (str_eqb (fst p) name)) l = true -> dict_set name v l = l ++ [(name, v)].
Proof.
  induction l as [|[k x] l IH]; cbn [dict_set forallb fst app]; intros H; [reflexivity|].
  apply andb_true_iff in H. destruct H as [H1 H2]. apply negb_true_iff in H1.
  rewrite str_eqb_sym, H1, (IH H2). reflexivity.
Qed.

(* the added detection means m (None: it is empty); neg: the `negated` parameter *)
Theorem add_condition_sem (name : str) (m : option bool) (neg : bool) (env : list (str * option bool)) (c : cexpr) :
  fresh_env name env = true -> fresh_in name c = true ->
  ceval selm (dict_set name m env) (CAndE [(if neg then CNotE (CId name) else CId name); c])
  = comb true (opt_list (option_map (xorb neg) m) ++ opt_list (ceval selm env c)).
Proof.
  intros He Hc. rewrite (dict_set_fresh name m env He). cbn [ceval flat_map]. rewrite app_nil_r.
  rewrite (ceval_fresh name m env c Hc). f_equal. f_equal.
  destruct neg; cbn [ceval]; rewrite (lookup_new env name m He); destruct m as [b|]; try destruct b; reflexivity.
Qed.
End AddCond.
