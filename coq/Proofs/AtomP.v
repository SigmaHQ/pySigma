(* The equality tests on items and comparison operators (Spec/Items.v, Spec/Atom.v) decide equality; where the
   scanner span of Spec/Atom.v stops. *)
From Coq Require Import NArith List Bool.
From PS Require Import Base.Chars Spec.Items Spec.Atom.
Import ListNotations.

Lemma item_eqb_eq i j : item_eqb i j = true <-> i = j.
Proof.
  destruct i, j; cbn [item_eqb]; rewrite ?N.eqb_eq, ?str_eqb_eq; split; congruence.
Qed.
Lemma items_eqb_eq l m : items_eqb l m = true <-> l = m.
Proof. apply list_eqb_eq, item_eqb_eq. Qed.
Lemma items_eqb_refl l : items_eqb l l = true.
Proof. apply items_eqb_eq. reflexivity. Qed.

Lemma cmpop_eqb_refl o : cmpop_eqb o o = true.
Proof. destruct o; reflexivity. Qed.

Definition stop (P : char -> bool) (rest : str) : bool := match rest with [] => true | c :: _ => negb (P c) end.

Lemma span_stop P f rest : forallb P f = true -> stop P rest = true -> span P (f ++ rest) = (f, rest).
Proof.
  induction f as [|c f IH]; cbn [app forallb span]; intros Hf Hs.
  - destruct rest as [|d r]; [reflexivity|]. cbn [stop] in Hs. apply negb_true_iff in Hs.
    cbn [span]. rewrite Hs. reflexivity.
  - apply andb_true_iff in Hf as [Hc Hf]. rewrite Hc, (IH Hf Hs). reflexivity.
Qed.
