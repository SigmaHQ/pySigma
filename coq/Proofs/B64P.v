(* Base64: the three-octet arithmetic of b64encode equals RFC 4648 over bit strings; the slices of
   base64offset are exactly the characters determined by the payload, and occur at every alignment. *)
From Coq Require Import NArith List Bool Lia Arith.
From PS Require Import Base.Chars Spec.B64 Model.Enc.
Import ListNotations.
Open Scope N_scope.

Lemma list_ind3 {A} (P : list A -> Prop) :
  P [] -> (forall a, P [a]) -> (forall a b, P [a; b]) ->
  (forall a b c r, P r -> P (a :: b :: c :: r)) -> forall l, P l.
Proof.
  intros H0 H1 H2 H3. fix IH 1. intros [|a [|b [|c r]]].
  - exact H0.
  - apply H1.
  - apply H2.
  - apply H3. apply IH.
Qed.

Lemma list_ind6 {A} (P : list A -> Prop) :
  (forall l, (length l < 6)%nat -> P l) ->
  (forall a b c d e f r, P r -> P (a :: b :: c :: d :: e :: f :: r)) -> forall l, P l.
Proof.
  intros H0 H6. fix IH 1. intros [|a [|b [|c [|d [|e [|f r]]]]]].
  1-6: apply H0; simpl; lia.
  apply H6. apply IH.
Qed.

Lemma full6_short l : (length l < 6)%nat -> full6 l = [].
Proof. destruct l as [|a [|b [|c [|d [|e [|f r]]]]]]; simpl; try reflexivity; lia. Qed.

Lemma full6_cons6 a b c d e f r :
  full6 (a :: b :: c :: d :: e :: f :: r) = sextet [a; b; c; d; e; f] :: full6 r.
Proof. reflexivity. Qed.

Lemma enc6_cons6 a b c d e f r :
  enc6 (a :: b :: c :: d :: e :: f :: r) = sextet [a; b; c; d; e; f] :: enc6 r.
Proof. reflexivity. Qed.

Lemma app_sixes (g : list bool -> str) :
  (forall a b c d e f r, g (a :: b :: c :: d :: e :: f :: r) = sextet [a; b; c; d; e; f] :: g r) ->
  forall n x y, length x = (n * 6)%nat -> g (x ++ y) = full6 x ++ g y.
Proof.
  intros Hg. induction n as [|n IH]; intros x y H.
  - destruct x; [reflexivity | discriminate].
  - destruct x as [|a [|b [|c [|d [|e [|f r]]]]]]; try discriminate. injection H as H.
    cbn [app]. rewrite Hg, full6_cons6, (IH r y H). reflexivity.
Qed.

Lemma full6_app_sixes n x y : length x = (n * 6)%nat -> full6 (x ++ y) = full6 x ++ full6 y.
Proof. exact (app_sixes full6 full6_cons6 n x y). Qed.

Lemma enc6_app_sixes n x y : length x = (n * 6)%nat -> enc6 (x ++ y) = full6 x ++ enc6 y.
Proof. exact (app_sixes enc6 enc6_cons6 n x y). Qed.

Lemma full6_app_prefix x : forall y, exists t, full6 (x ++ y) = full6 x ++ t.
Proof.
  induction x as [l Hl | a b c d e f r IH] using list_ind6; intros y.
  - rewrite (full6_short l Hl). eexists. reflexivity.
  - destruct (IH y) as [t Ht]. exists t. cbn [app]. rewrite !full6_cons6, Ht. reflexivity.
Qed.

Lemma length_full6 l : length (full6 l) = (length l / 6)%nat.
Proof.
  induction l as [l Hl | a b c d e f r IH] using list_ind6.
  - rewrite full6_short by exact Hl. rewrite Nat.div_small by exact Hl. reflexivity.
  - rewrite full6_cons6. simpl length. rewrite IH.
    replace (S (S (S (S (S (S (length r))))))) with (1 * 6 + length r)%nat by lia.
    rewrite Nat.div_add_l by lia. lia.
Qed.

Lemma skipn_full6 n : forall l, skipn n (full6 l) = full6 (skipn (6 * n) l).
Proof.
  induction n as [|n IH]; intros l; [reflexivity|].
  replace (6 * S n)%nat with (S (S (S (S (S (S (6 * n)))))))%nat by lia.
  destruct l as [|a [|b [|c [|d [|e [|f r]]]]]]; try reflexivity.
  rewrite full6_cons6. cbn [skipn]. apply IH.
Qed.

Lemma bits_app x y : bits (x ++ y) = bits x ++ bits y.
Proof. unfold bits. apply flat_map_app. Qed.

Lemma bits_cons a x : bits (a :: x) = byte_bits a ++ bits x.
Proof. reflexivity. Qed.

Lemma length_bits x : length (bits x) = (8 * length x)%nat.
Proof. induction x as [|a x IH]; [reflexivity|]. rewrite bits_cons, app_length, IH. simpl length. lia. Qed.

Lemma bits_val_snoc l b : bits_val (l ++ [b]) = 2 * bits_val l + b2n b.
Proof. unfold bits_val. rewrite fold_left_app. reflexivity. Qed.

Lemma bits_val_app x y : bits_val (x ++ y) = bits_val x * 2 ^ N.of_nat (length y) + bits_val y.
Proof.
  induction y as [|b y IH] using rev_ind.
  - rewrite app_nil_r. cbn. lia.
  - rewrite app_assoc, !bits_val_snoc, IH, app_length, Nat.add_comm, Nat2N.inj_succ, N.pow_succ_r'. lia.
Qed.

Lemma bits_val_lt l : bits_val l < 2 ^ N.of_nat (length l).
Proof.
  induction l as [|b l IH] using rev_ind; [reflexivity|].
  rewrite bits_val_snoc, app_length, Nat.add_comm, Nat2N.inj_succ, N.pow_succ_r'. destruct b; cbn [b2n]; lia.
Qed.

Lemma bits_val_div x y : bits_val (x ++ y) / 2 ^ N.of_nat (length y) = bits_val x.
Proof. symmetry. apply N.div_unique with (bits_val y); [apply bits_val_lt | rewrite bits_val_app; lia]. Qed.

Lemma bits_val_mod x y : bits_val (x ++ y) mod 2 ^ N.of_nat (length y) = bits_val y.
Proof. symmetry. apply N.mod_unique with (bits_val x); [apply bits_val_lt | rewrite bits_val_app; lia]. Qed.

Lemma testbits_val a n :
  bits_val (map (N.testbit a) (rev (map N.of_nat (seq 0 n)))) = a mod 2 ^ N.of_nat n.
Proof.
  induction n as [|n IH]; [symmetry; apply N.mod_1_r|].
  rewrite seq_S, map_app, rev_app_distr, map_app, bits_val_app, IH, map_length, rev_length, map_length, seq_length.
  rewrite Nat2N.inj_succ, N.pow_succ_r', (N.mul_comm 2), N.mod_mul_r, <- N.testbit_spec'
    by (try apply N.pow_nonzero; lia).
  unfold bits_val. cbn. change N.b2n with b2n. lia.
Qed.

Lemma byte_bits_val a : byte_ok a = true -> bits_val (byte_bits a) = a.
Proof.
  intros H. apply N.ltb_lt in H. rewrite <- (N.mod_small a 256) at 2 by exact H. exact (testbits_val a 8).
Qed.

Lemma byte_top a k : byte_ok a = true -> bits_val (firstn k (byte_bits a)) = a / 2 ^ N.of_nat (8 - k).
Proof.
  intros H. rewrite <- (byte_bits_val a H) at 2. rewrite <- (firstn_skipn k (byte_bits a)) at 2.
  rewrite <- (bits_val_div _ (skipn k (byte_bits a))), skipn_length. reflexivity.
Qed.

Lemma byte_low a k : byte_ok a = true -> bits_val (skipn k (byte_bits a)) = a mod 2 ^ N.of_nat (8 - k).
Proof.
  intros H. rewrite <- (byte_bits_val a H) at 2. rewrite <- (firstn_skipn k (byte_bits a)) at 2.
  rewrite <- (bits_val_mod (firstn k (byte_bits a))), skipn_length. reflexivity.
Qed.

Lemma alphabet_alpha : alphabet = map (fun i => alpha (N.of_nat i)) (seq 0 64).
Proof. reflexivity. Qed.

Lemma sextet_alpha g : length g = 6%nat -> sextet g = alpha (bits_val g).
Proof.
  intros H. pose proof (bits_val_lt g) as L. rewrite H in L. change (2 ^ N.of_nat 6) with 64 in L.
  unfold sextet.
  rewrite alphabet_alpha, (nth_indep _ 0 (alpha (N.of_nat 0))) by (rewrite map_length, seq_length; lia).
  rewrite (map_nth (fun i => alpha (N.of_nat i))), seq_nth by lia. cbn [Nat.add]. rewrite N2Nat.id. reflexivity.
Qed.

Lemma full6_chunk3 a b c : byte_ok a = true -> byte_ok b = true -> byte_ok c = true ->
  full6 (bits [a; b; c]) =
  [alpha (a / 4); alpha ((a mod 4) * 16 + b / 16); alpha ((b mod 16) * 4 + c / 64); alpha (c mod 64)].
Proof.
  intros Ha Hb Hc.
  change (full6 (bits [a; b; c])) with
    [sextet (firstn 6 (byte_bits a)); sextet (skipn 6 (byte_bits a) ++ firstn 4 (byte_bits b));
     sextet (skipn 4 (byte_bits b) ++ firstn 2 (byte_bits c)); sextet (skipn 2 (byte_bits c))].
  rewrite !sextet_alpha, !bits_val_app, !byte_top, !byte_low by (assumption || reflexivity). reflexivity.
Qed.

Lemma bytes_ok_cons a x : bytes_ok (a :: x) = true <-> byte_ok a = true /\ bytes_ok x = true.
Proof. unfold bytes_ok. simpl. apply andb_true_iff. Qed.
Lemma bytes_ok_app x y : bytes_ok (x ++ y) = true <-> bytes_ok x = true /\ bytes_ok y = true.
Proof. unfold bytes_ok. rewrite forallb_app. apply andb_true_iff. Qed.
Lemma bytes_ok_mid x y z : bytes_ok (x ++ y ++ z) = true -> bytes_ok y = true.
Proof. intros [_ [H _]%bytes_ok_app]%bytes_ok_app. exact H. Qed.

Lemma rfc_step a b c r : rfc4648 (a :: b :: c :: r) = full6 (bits [a; b; c]) ++ rfc4648 r.
Proof.
  unfold rfc4648.
  change (a :: b :: c :: r) with ([a; b; c] ++ r). rewrite bits_app.
  rewrite (enc6_app_sixes 4) by reflexivity.
  rewrite app_length.
  replace (length (full6 (bits [a; b; c]))) with (1 * 4)%nat by reflexivity.
  rewrite (Nat.add_comm (1 * 4)), Nat.mod_add by lia.
  rewrite app_assoc. reflexivity.
Qed.

Lemma rfc_tail1 a : rfc4648 [a] = firstn 2 (full6 (bits [a; 0; 0])) ++ [c_pad; c_pad].
Proof. reflexivity. Qed.
Lemma rfc_tail2 a b : rfc4648 [a; b] = firstn 3 (full6 (bits [a; b; 0])) ++ [c_pad].
Proof. reflexivity. Qed.

Theorem b64_rfc4648 : forall x, bytes_ok x = true -> b64 x = rfc4648 x.
Proof.
  induction x as [|a|a b|a b c r IH] using list_ind3.
  - reflexivity.
  - intros [Ha _]%bytes_ok_cons. (* b64 leaves out the summand 0 / 16 that the zero octet contributes *)
    cbn [b64]. rewrite <- (N.add_0_r (_ * 16)), rfc_tail1, full6_chunk3 by (assumption || reflexivity). reflexivity.
  - intros [Ha [Hb _]%bytes_ok_cons]%bytes_ok_cons.
    cbn [b64]. rewrite <- (N.add_0_r (_ * 4)), rfc_tail2, full6_chunk3 by (assumption || reflexivity). reflexivity.
  - intros [Ha [Hb [Hc H]%bytes_ok_cons]%bytes_ok_cons]%bytes_ok_cons.
    rewrite rfc_step, full6_chunk3 by assumption. cbn [b64 app]. rewrite IH by exact H. reflexivity.
Qed.

Lemma rfc_full6 : forall x,
  exists junk, rfc4648 x = full6 (bits x) ++ junk /\ length junk = end_cut (length x mod 3)%nat.
Proof.
  induction x as [|a|a b|a b c r (junk & E & L)] using list_ind3.
  1-3: eexists; split; reflexivity.
  exists junk. split.
  - rewrite rfc_step, E, app_assoc. change (a :: b :: c :: r) with ([a; b; c] ++ r).
    rewrite bits_app, (full6_app_sixes 4) by reflexivity. reflexivity.
  - rewrite L. simpl length.
    replace (S (S (S (length r)))) with (length r + 1 * 3)%nat by lia.
    rewrite Nat.mod_add by lia. reflexivity.
Qed.

Lemma py_slice_junk a F junk :
  py_slice a (length junk) (F ++ junk) = skipn a F.
Proof.
  unfold py_slice.
  rewrite app_length, Nat.add_sub, skipn_app, firstn_app, skipn_length, Nat.sub_diag, firstn_O, app_nil_r.
  rewrite <- skipn_length. apply firstn_all.
Qed.

Lemma bytes_ok_spaces i : bytes_ok (repeat 32 i) = true.
Proof. induction i; [reflexivity|]. simpl repeat. apply bytes_ok_cons. split; [reflexivity | exact IHi]. Qed.

(* ties the model's start_offsets (0, 2, 3 characters) to the 0, 4, 2 bits of the specification *)
Lemma lead_bits_start_off i : (i < 3)%nat -> (lead_bits i + 8 * i = 6 * start_off i)%nat.
Proof. intros H. destruct i as [|[|[|i]]]; try lia; reflexivity. Qed.

Theorem variant_payload_text : forall i p, (i < 3)%nat -> bytes_ok p = true ->
  variant i p = payload_text i p.
Proof.
  intros i p Hi Hp. unfold variant, payload_text.
  assert (Hx : bytes_ok (repeat 32 i ++ p) = true)
    by (apply bytes_ok_app; split; [apply bytes_ok_spaces | exact Hp]).
  rewrite b64_rfc4648 by exact Hx. destruct (rfc_full6 (repeat 32 i ++ p)) as [junk [-> L]].
  rewrite app_length, repeat_length, (Nat.add_comm i) in L. rewrite <- L.
  (* the start offset skips the 8 * i bits of the spaces and lead_bits i bits of the payload *)
  rewrite py_slice_junk, skipn_full6, bits_app, <- (lead_bits_start_off i Hi).
  rewrite skipn_app, length_bits, repeat_length, Nat.add_sub, skipn_all2 by (rewrite length_bits, repeat_length; lia).
  reflexivity.
Qed.

Theorem variant_length i p : (i < 3)%nat -> bytes_ok p = true ->
  length (variant i p) = ((8 * length p - lead_bits i) / 6)%nat.
Proof.
  intros Hi Hp. rewrite variant_payload_text by assumption. unfold payload_text.
  rewrite length_full6, skipn_length, length_bits. reflexivity.
Qed.

(* the 0 in front: the default of nth, which sextet returns for a group of more than six bits *)
Lemma sextet_table (P : char -> bool) g : forallb P (0 :: alphabet) = true -> P (sextet g) = true.
Proof.
  intros H. apply (proj1 (forallb_forall _ _) H). unfold sextet.
  destruct (nth_in_or_default (N.to_nat (bits_val g)) alphabet 0) as [Hin | ->]; [right; exact Hin | left; reflexivity].
Qed.

Lemma sextet_not_pad g : sextet g <> c_pad.
Proof. intros H. pose proof (sextet_table (fun c => negb (c =? c_pad)) g eq_refl) as T. rewrite H in T. discriminate. Qed.

Theorem payload_text_no_padding i p : ~ In c_pad (payload_text i p).
Proof.
  unfold payload_text, full6. intros H. apply in_map_iff in H. destruct H as [g [Hg _]].
  exact (sextet_not_pad g Hg).
Qed.

Lemma full6_occurs n x y z : length x = (n * 6)%nat -> occurs_at n (full6 y) (full6 (x ++ y ++ z)).
Proof.
  intros H. rewrite (full6_app_sixes n) by exact H.
  destruct (full6_app_prefix y z) as [t ->]. exists (full6 x), t. split; [reflexivity|].
  rewrite length_full6, H. apply Nat.div_mul. discriminate.
Qed.

(* p <> []: the payload is found among the complete groups of the text (full6_occurs); for an empty payload the
   position may lie beyond them, in the padded last group *)
Theorem payload_text_occurs : forall i pre p suf,
  (length pre mod 3 = i)%nat -> p <> [] ->
  occurs_at (4 * (length pre / 3) + start_off i) (payload_text i p) (rfc4648 (pre ++ p ++ suf)).
Proof.
  intros i pre p suf Hi Hne. unfold payload_text. set (k := lead_bits i).
  assert (Hk : (k <= length (bits p))%nat).
  { rewrite length_bits. destruct p; [congruence|]. simpl length.
    unfold k, lead_bits. destruct i as [|[|i]]; lia. }
  assert (HA : length (bits pre ++ firstn k (bits p)) = ((4 * (length pre / 3) + start_off i) * 6)%nat).
  { rewrite app_length, firstn_length, length_bits, Nat.min_l by exact Hk.
    pose proof (Nat.div_mod (length pre) 3 ltac:(lia)) as D. rewrite Hi in D.
    assert (Hi3 : (i < 3)%nat) by (rewrite <- Hi; apply Nat.mod_upper_bound; lia).
    pose proof (lead_bits_start_off i Hi3). unfold k. lia. }
  destruct (full6_occurs _ _ (skipn k (bits p)) (bits suf) HA) as (a & t & E & La).
  rewrite <- app_assoc, (app_assoc (firstn k _)), firstn_skipn, <- !bits_app in E.
  destruct (rfc_full6 (pre ++ p ++ suf)) as [junk [-> _]]. exists a, (t ++ junk). split; [|exact La].
  rewrite E, <- !app_assoc. reflexivity.
Qed.

Theorem offset_payload_only_rfc : forall i pre p suf,
  (length pre mod 3 = i)%nat -> p <> [] -> bytes_ok p = true ->
  occurs_at (4 * (length pre / 3) + start_off i) (variant i p) (rfc4648 (pre ++ p ++ suf)).
Proof.
  intros i pre p suf Hi Hne Hp.
  assert (Hi3 : (i < 3)%nat) by (rewrite <- Hi; apply Nat.mod_upper_bound; lia).
  rewrite variant_payload_text by assumption. apply payload_text_occurs; assumption.
Qed.

Lemma variant_empty i : (i < 3)%nat -> variant i [] = [].
Proof. intros H. destruct i as [|[|[|i]]]; try lia; reflexivity. Qed.

Theorem offset_hit_rfc : forall pre p suf, bytes_ok p = true ->
  exists i, (i < 3)%nat /\ infix (variant i p) (rfc4648 (pre ++ p ++ suf)).
Proof.
  intros pre p suf Hp. exists (length pre mod 3)%nat.
  assert (Hi : (length pre mod 3 < 3)%nat) by (apply Nat.mod_upper_bound; lia).
  split; [exact Hi|].
  destruct p as [|b p']. (* payload_text_occurs excludes the empty payload *)
  - rewrite variant_empty by exact Hi. exists [], (rfc4648 (pre ++ [] ++ suf)). reflexivity.
  - destruct (offset_payload_only_rfc _ pre (b :: p') suf eq_refl ltac:(discriminate) Hp) as (a & c & E & _).
    exists a, c. exact E.
Qed.

Lemma infixb_spec v t : infixb v t = true <-> infix v t.
Proof.
  induction t as [|x t IH]; simpl.
  - rewrite orb_false_r, prefixb_spec. split.
    + intros [r Hr]. exists [], r. exact Hr.
    + intros [a [b H]]. destruct a; [|discriminate]. exists b. exact H.
  - rewrite orb_true_iff, prefixb_spec, IH. split.
    + intros [[r Hr] | [a [b H]]].
      * exists [], r. exact Hr.
      * exists (x :: a), b. rewrite H. reflexivity.
    + intros [a [b H]]. destruct a as [|y a].
      * left. exists b. exact H.
      * right. inversion H; subst. exists a, b. reflexivity.
Qed.
