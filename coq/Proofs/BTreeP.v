(* C10 - Model/BTree.v: reading a printed well-formed bracket tree gives the tree back (pnodes_show); merging
   text runs keeps the printed text and makes a list of clean runs and well-formed elements well formed. *)
From Coq Require Import List NArith Bool Lia.
From PS Require Import Base.Chars Model.BTree.
Import ListNotations.
Open Scope N_scope.

(* the nested `fix go` of wfn is wfl up to conversion; an element's wfn is opened by this equation, which keeps the
   fix out of sight *)
Lemma wfn_E tag kids : wfn (E tag kids) = clean_tag tag && wfl kids.
Proof. reflexivity. Qed.

Lemma wfl_cons x r : wfl (x :: r) = wfn x && negb (is_text x && match r with y :: _ => is_text y | [] => false end) && wfl r.
Proof. reflexivity. Qed.

Lemma showc_cons x l : showc (x :: l) = shown x ++ showc l.
Proof. reflexivity. Qed.

Lemma shown_E_head tag kids : exists r, shown (E tag kids) = c_lb :: r.
Proof. simpl. eexists. reflexivity. Qed.

Lemma shown_E_app tag kids rest : shown (E tag kids) ++ rest = c_lb :: tag ++ c_bar :: showc kids ++ c_rb :: rest.
Proof. cbn [shown app]. rewrite <- app_assoc. cbn [app]. rewrite <- app_assoc. reflexivity. Qed.

Lemma clean_cons c s : clean (c :: s) = negb (is_bracket c) && clean s.
Proof. unfold clean. simpl. rewrite negb_orb. reflexivity. Qed.

Lemma clean_app a b : clean (a ++ b) = clean a && clean b.
Proof. unfold clean. rewrite existsb_app, negb_orb. reflexivity. Qed.

Lemma clean_tag_cons c s : clean_tag (c :: s) = negb (is_bracket c || N.eqb c c_bar) && clean_tag s.
Proof. unfold clean_tag. simpl. rewrite negb_orb. reflexivity. Qed.

(* what may follow a printed list of nodes: the end of the input, or the closing bracket of the enclosing element *)
Definition stopper (rest : str) : Prop := rest = [] \/ exists r, rest = c_rb :: r.
Definition starts_bracket_or_empty (s : str) : Prop :=
  match s with [] => True | c :: _ => is_bracket c = true end.

Lemma stopper_sbe rest : stopper rest -> starts_bracket_or_empty rest.
Proof. intros [->|[r ->]]; simpl; auto. Qed.

Lemma span_text_app s rest : clean s = true -> starts_bracket_or_empty rest ->
  span_text (s ++ rest) = (s, rest).
Proof.
  induction s as [|c s IH]; intros Hc Hr.
  - destruct rest as [|c r]; [reflexivity|]. simpl in *. rewrite Hr. reflexivity.
  - rewrite clean_cons in Hc. apply andb_true_iff in Hc as [H1%negb_true_iff H2].
    simpl. rewrite H1, (IH H2 Hr). reflexivity.
Qed.

Lemma span_tag_app tag rest : clean_tag tag = true -> span_tag (tag ++ c_bar :: rest) = Some (tag, rest).
Proof.
  induction tag as [|c s IH]; intros Hc; [reflexivity|].
  rewrite clean_tag_cons in Hc. apply andb_true_iff in Hc as [[Hb Hbar]%negb_true_iff%orb_false_iff H2].
  simpl. rewrite Hbar, Hb, (IH H2). reflexivity.
Qed.

Lemma pnodes_run f c s rest : clean (c :: s) = true -> starts_bracket_or_empty rest ->
  pnodes (S f) ((c :: s) ++ rest) =
  match pnodes f rest with Some (more, r) => Some (T (c :: s) :: more, r) | None => None end.
Proof.
  intros Hc Hr. pose proof Hc as Hb. rewrite clean_cons in Hb.
  apply andb_true_iff in Hb as [[Hlb Hrb]%negb_true_iff%orb_false_iff _].
  cbn [pnodes app]. rewrite Hrb, Hlb. change (c :: s ++ rest) with ((c :: s) ++ rest).
  rewrite (span_text_app _ _ Hc Hr). reflexivity.
Qed.

Lemma pnodes_elem f tag s : clean_tag tag = true ->
  pnodes (S f) (c_lb :: tag ++ c_bar :: s) =
  match pnodes f s with
  | Some (kids, c2 :: r2) =>
      if c2 =? c_rb then match pnodes f r2 with Some (more, r) => Some (E tag kids :: more, r) | None => None end
      else None
  | _ => None
  end.
Proof.
  intros Ht. cbn [pnodes]. change (c_lb =? c_rb) with false. rewrite N.eqb_refl, (span_tag_app _ _ Ht). reflexivity.
Qed.

Local Ltac len := repeat (rewrite app_length in * || cbn [length] in *); lia.

Theorem pnodes_show : forall f l rest, wfl l = true -> stopper rest ->
  (length (showc l ++ rest) < f)%nat -> pnodes f (showc l ++ rest) = Some (l, rest).
Proof.
  induction f as [|f IH]; intros l rest Hw Hs Hlen; [lia|].
  destruct l as [|x l]; [destruct Hs as [->|[r ->]]; reflexivity|].
  rewrite wfl_cons in Hw. apply andb_true_iff in Hw as [[Hwx Hadj]%andb_true_iff Hwl].
  rewrite showc_cons, <- app_assoc in *.
  destruct x as [[|c s]|tag kids]; [discriminate Hwx| |].
  - (* the run ends at the bracket of the next element, or where the list ends *)
    cbn [shown] in *. rewrite pnodes_run, (IH l rest Hwl Hs); [reflexivity|len|exact Hwx|].
    destruct l as [|[s'|tag' kids'] l]; [exact (stopper_sbe _ Hs)|discriminate Hadj|reflexivity].
  - rewrite wfn_E in Hwx. apply andb_true_iff in Hwx as [Htag Hkids].
    rewrite shown_E_app in *. rewrite (pnodes_elem _ _ _ Htag), (IH kids (c_rb :: showc l ++ rest) Hkids).
    + rewrite N.eqb_refl, (IH l rest Hwl Hs); [reflexivity|len].
    + right. eexists. reflexivity.
    + len.
Qed.

Theorem btree_read_show l : wfl l = true -> readc (showc l) = Some l.
Proof.
  intros Hw. unfold readc.
  pose proof (pnodes_show (S (length (showc l))) l [] Hw (or_introl eq_refl)) as H.
  rewrite app_nil_r in H. rewrite H; [reflexivity | lia].
Qed.

Lemma showc_merge l : showc (merge l) = showc l.
Proof.
  induction l as [|x l IH]; [reflexivity|].
  destruct x as [s|tag kids]; cbn [merge]; [|rewrite !showc_cons, IH; reflexivity].
  rewrite showc_cons, <- IH. destruct (merge l) as [|[s'|tag' kids'] m].
  - destruct s; simpl; rewrite ?app_nil_r; reflexivity.
  - rewrite !showc_cons. cbn [shown]. rewrite app_assoc. reflexivity.
  - destruct s; reflexivity.
Qed.

Lemma wfl_merge l :
  (forall n, In n l -> match n with T s => clean s = true | E _ _ => wfn n = true end) -> wfl (merge l) = true.
Proof.
  induction l as [|x l IH]; intros H; [reflexivity|].
  assert (Hx := H x (or_introl eq_refl)). specialize (IH (fun n Hn => H n (or_intror Hn))).
  destruct x as [s|tag kids]; cbn [merge]; [|rewrite wfl_cons, Hx, IH; reflexivity].
  destruct (merge l) as [|[s'|tag' kids'] m].
  - destruct s; [reflexivity|]. cbn [wfl wfn]. rewrite Hx. reflexivity.
  - (* two runs become one, not empty since the second is not *)
    rewrite wfl_cons in IH. apply andb_true_iff in IH as [[Hw Hadj]%andb_true_iff Hm].
    cbn [wfn is_text] in Hw, Hadj. apply andb_true_iff in Hw as [Hne Hcl].
    rewrite wfl_cons. cbn [wfn is_text]. rewrite clean_app, Hx, Hcl, Hm, Hadj.
    destruct s'; [discriminate Hne|]. destruct s; reflexivity.
  - destruct s; [exact IH|]. rewrite wfl_cons. cbn [wfn is_text]. rewrite Hx, IH. reflexivity.
Qed.
