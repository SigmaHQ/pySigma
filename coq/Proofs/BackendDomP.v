(* Boolean versions of the premises of the structure theorem (used by the run-time judge to mark
   which generated cases lie in the proved domain), their soundness, and the refutations outside
   the domain. *)
From Coq Require Import List Arith Bool.
From PS Require Import Model.Backend Spec.Target Proofs.BackendP Proofs.BackendMainP.
Import ListNotations.
Open Scope nat_scope.

Definition cfg_ok (K : cfg) : bool :=
  (1 <=? lvl K ONot) && (lvl K ONot <=? 3) && (1 <=? lvl K OAnd) && (lvl K OAnd <=? 3) &&
  (1 <=? lvl K OOr) && (lvl K OOr <=? 3) &&
  negb (lvl K ONot =? lvl K OAnd) && negb (lvl K ONot =? lvl K OOr) && negb (lvl K OAnd =? lvl K OOr).

Lemma cfg_ok_spec K : cfg_ok K = true ->
  (forall o, 1 <= lvl K o <= 3) /\ (forall a b, lvl K a = lvl K b -> a = b).
Proof.
  unfold cfg_ok. intros H.
  apply andb_true_iff in H as [H Hao]. apply andb_true_iff in H as [H Hno]. apply andb_true_iff in H as [H Hna].
  apply negb_true_iff, Nat.eqb_neq in Hao, Hno, Hna. repeat (apply andb_true_iff in H as [H ?]). split.
  - intros []; split; now apply Nat.leb_le.
  - intros [] [] E; try reflexivity; congruence.
Qed.

Definition not_arg_okb (K : cfg) (a : cond) : bool :=
  negb (not_eq K) || match a with CAtom _ _ true _ => true | _ => false end.

Fixpoint wfb (K : cfg) (c : cond) : bool :=
  match c with
  | CAtom _ _ _ _ => true
  | COrFresh _ ps => match ps with [] => false | _ => true end
  | CNotExists _ => (lvl K ONot =? 1) && negb (not_eq K)
  | CNot a => wfb K a && not_arg_okb K a
  | CExp args => match args with [] => false | _ => true end &&
                 (fix all l := match l with [] => true | x :: r => wfb K x && all r end) args
  | CBin _ args => match args with [] => false | _ => true end &&
                 (fix all l := match l with [] => true | x :: r => wfb K x && all r end) args
  end.

Lemma wfb_args K l : Forall (fun c => wfb K c = true -> wf K c) l ->
  (fix all l := match l with [] => true | x :: r => wfb K x && all r end) l = true -> Forall (wf K) l.
Proof.
  induction 1 as [|x l Hx _ IH]; [constructor|].
  intros H. apply andb_true_iff in H as [H1 H2]. auto.
Qed.

Lemma wfb_wf K c : wfb K c = true -> wf K c.
Proof.
  induction c as [k f n a|args IH|f ps|a|a IH|o args IH] using cond_ind'; cbn [wfb]; intros H;
    try (apply andb_true_iff in H as [H1 H2]).
  - exact I.
  - apply wf_exp. split; [intros ->; discriminate | apply wfb_args; assumption].
  - intros ->. discriminate.
  - split; [now apply Nat.eqb_eq | now apply negb_true_iff].
  - split; auto. apply orb_true_iff in H2 as [H2|H2].
    + left. now apply negb_true_iff.
    + right. now destruct a as [? ? [] ?| | | | |].
  - apply wf_bin. split; [intros ->; discriminate | apply wfb_args; assumption].
Qed.

Theorem structure_b K asg c : cfg_ok K = true -> wfb K c = true ->
  exists f, pe (lvl K) asg f 3 (conv K false c) = Some (den asg c, []).
Proof.
  intros HK Hw. destruct (cfg_ok_spec K HK). now apply structure, wfb_wf.
Qed.

Definition lvl_std (o : op) : nat := match o with ONot => 1 | OAnd => 2 | OOr => 3 end.
Definition K_ne : cfg := {| lvl := lvl_std; parenthesize := false; or_in := false; and_in := false;
                            in_wild := false; not_eq := true |}.
Definition at_ (a : nat) := CAtom (KStr false) (Some a) true a.

(* NOT over a group: (f!="a" and g!="b") instead of not (f="a" and g="b") *)
Lemma noteq_group_refuted : exists c asg,
  tparse lvl_std asg (conv K_ne false c) <> Some (den asg c).
Proof. exists (CNot (CBin BAnd [at_ 0; at_ 1])), (fun a => Nat.eqb a 0). vm_compute. discriminate. Qed.
(* NOT over a value without negated template: f=1 *)
Lemma noteq_number_refuted : exists c asg,
  tparse lvl_std asg (conv K_ne false c) <> Some (den asg c).
Proof. exists (CNot (CAtom KNum (Some 0) false 0)), (fun _ => true). vm_compute. discriminate. Qed.
(* double NOT: (f!="a") *)
Lemma noteq_double_refuted : exists c asg,
  tparse lvl_std asg (conv K_ne false c) <> Some (den asg c).
Proof. exists (CNot (CNot (at_ 0))), (fun _ => true). vm_compute. discriminate. Qed.
(* exists: false in not-equals mode renders as exists(f) *)
Lemma noteq_notexists_refuted : exists c asg,
  tparse lvl_std asg (conv K_ne false c) <> Some (den asg c).
Proof. exists (CNotExists 0), (fun _ => true). vm_compute. discriminate. Qed.

(* the NOT(exists) rewrite is not grouped: wrong when NOT binds looser than AND *)
Definition lvl_odd (o : op) : nat := match o with OAnd => 1 | ONot => 2 | OOr => 3 end.
Definition K_odd : cfg := {| lvl := lvl_odd; parenthesize := false; or_in := false; and_in := false;
                             in_wild := false; not_eq := false |}.
Lemma notexists_loose_not_refuted : exists c asg,
  tparse lvl_odd asg (conv K_odd false c) <> Some (den asg c).
Proof. exists (CBin BAnd [at_ 0; CNotExists 1]), (fun _ => true). vm_compute. discriminate. Qed.

(* non-vacuity: a 4-level rule with expansion under NOT, CIDR expansion and in-list lies in the domain *)
Definition K_std : cfg := {| lvl := lvl_std; parenthesize := false; or_in := true; and_in := false;
                             in_wild := false; not_eq := false |}.
Definition sample : cond :=
  CBin BAnd [ CBin BOr [at_ 0; at_ 1]; CNot (CExp [at_ 2; at_ 3]);
              COrFresh 9 [(4, (true, true)); (5, (true, true))]; CNot (CBin BAnd [at_ 6; CNotExists 7]) ].
Example sample_in_domain : cfg_ok K_std = true /\ wfb K_std sample = true /\
  tparse lvl_std (fun a => Nat.even a) (conv K_std false sample) = Some (den (fun a => Nat.even a) sample).
Proof. vm_compute. repeat split. Qed.
Example sample_noteq_in_domain :
  wfb K_ne (CBin BOr [CNot (at_ 0); at_ 1; CExp [at_ 2; at_ 3]]) = true.
Proof. reflexivity. Qed.
