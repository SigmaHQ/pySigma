(* The structure theorem.  For a condition tree c in the domain wf, the tokens conv produces are an operand
   with value den c at every level from the node's own (rtop) on (A), and if c is an AND, OR or expansion
   they are a sequence of operands of its operator (B); theorem main proves both by induction on c,
   theorem structure is the case of the whole query. *)
From Coq Require Import List Arith Bool Lia.
From PS Require Import Model.Backend Spec.Target Proofs.BackendP.
Import ListNotations.
Open Scope nat_scope.

Section Ind.
  Variable P : cond -> Prop.
  Hypothesis Hatom : forall k f n a, P (CAtom k f n a).
  Hypothesis Hexp : forall args, Forall P args -> P (CExp args).
  Hypothesis Hfresh : forall f ps, P (COrFresh f ps).
  Hypothesis Hnex : forall a, P (CNotExists a).
  Hypothesis Hnot : forall c, P c -> P (CNot c).
  Hypothesis Hbin : forall o args, Forall P args -> P (CBin o args).
  Fixpoint cond_ind' (c : cond) : P c :=
    match c with
    | CAtom k f n a => Hatom k f n a
    | CExp args => Hexp args ((fix go l : Forall P l :=
          match l with [] => Forall_nil P | x :: r => Forall_cons x (cond_ind' x) (go r) end) args)
    | COrFresh f ps => Hfresh f ps
    | CNotExists a => Hnex a
    | CNot a => Hnot a (cond_ind' a)
    | CBin o args => Hbin o args ((fix go l : Forall P l :=
          match l with [] => Forall_nil P | x :: r => Forall_cons x (cond_ind' x) (go r) end) args)
    end.
End Ind.

Section M.
Variable K : cfg.
Variable asg : nat -> bool.
Hypothesis lvl_range : forall o, 1 <= lvl K o <= 3.
Hypothesis lvl_inj : forall a b, lvl K a = lvl K b -> a = b.

Notation den := (den asg).
Notation PE := (PE K asg).
Notation Operand := (Operand K asg).
Notation OpSeq := (OpSeq K asg).
Notation stops := (stops K).

(* The domain of the theorem.  Operators and expansions have arguments; the on-the-fly
   NOT(exists) rewrite needs a backend whose NOT binds tightest and is wrong in not-equals mode;
   in not-equals mode (convert_not_as_not_eq) a NOT is only sound directly above a leaf whose
   template has a negated twin. *)
Definition not_arg_ok (a : cond) : Prop :=
  not_eq K = false \/ match a with CAtom _ _ true _ => True | _ => False end.
Fixpoint wf (c : cond) : Prop :=
  match c with
  | CAtom _ _ _ _ => True
  | COrFresh _ ps => ps <> []
  | CNotExists _ => lvl K ONot = 1 /\ not_eq K = false
  | CNot a => wf a /\ not_arg_ok a
  | CExp args => args <> [] /\ (fix all l := match l with [] => True | x :: r => wf x /\ all r end) args
  | CBin _ args => args <> [] /\ (fix all l := match l with [] => True | x :: r => wf x /\ all r end) args
  end.
Lemma wf_args l :
  (fix all l := match l with [] => True | x :: r => wf x /\ all r end) l <-> Forall wf l.
Proof.
  induction l as [|x l IH]; [now split|]. rewrite IH. split; [intros []; now constructor | now inversion 1].
Qed.
Lemma wf_bin o args : wf (CBin o args) <-> args <> [] /\ Forall wf args.
Proof. cbn [wf]. now rewrite wf_args. Qed.
Lemma wf_exp args : wf (CExp args) <-> args <> [] /\ Forall wf args.
Proof. cbn [wf]. now rewrite wf_args. Qed.

(* The level from which the rendering of c parses.  It is top K c except for CNotExists: the code
   classes that node as a leaf (level 0) but renders it as NOT atom, which parses only from the level
   of NOT on.  wf pays for the difference by asking lvl K ONot = 1, and notexists_loose_not_refuted
   shows what happens without it. *)
Definition rtop (c : cond) : nat := match c with CNotExists _ => lvl K ONot | _ => top K c end.

Definition seqop (c : cond) : option op :=
  match c with CExp _ => Some OOr | CBin o _ => Some (of_bop o) | _ => None end.

Definition tokens_of (un : bool) (o : op) (a : cond) : list tok :=
  if cmp K o a then conv K un a else group (conv K un a).

Lemma conv_exp un args :
  conv K un (CExp args) = join (TOp OOr) (map (tokens_of un OOr) args).
Proof. reflexivity. Qed.
Lemma conv_bin un o args :
  conv K un (CBin o args) =
  match decide_in K o args with
  | Some f => [TIn (match o with BOr => true | BAnd => false end) f (map atom_of args)]
  | None => join (TOp (of_bop o)) (map (tokens_of un (of_bop o)) args)
  end.
Proof. reflexivity. Qed.
Definition not_body (un : bool) (a : cond) : list tok :=
  match a with CNot _ | CBin _ _ | CExp _ => group (conv K un a) | _ => conv K un a end.
Lemma conv_not un a : conv K un (CNot a) = if not_eq K then not_body true a else TOp ONot :: not_body true a.
Proof. reflexivity. Qed.

Lemma lvl_not_bin o : lvl K ONot <> lvl K (of_bop o).
Proof. intros X. apply lvl_inj in X. destruct o; discriminate. Qed.

Lemma rtop_le3 c : rtop c <= 3.
Proof. destruct c; simpl; try lia; apply (lvl_le3 K lvl_range). Qed.

Lemma rtop_cmp o a : wf a -> cmp K o a = true -> rtop a <= lvl K o.
Proof.
  unfold cmp. intros Hw H. destruct (parenthesize K && negb (is_leaf a)); [discriminate|].
  apply Nat.leb_le in H. destruct a; auto. destruct Hw as [Hl _]. cbn. rewrite Hl. apply lvl_range.
Qed.

Lemma seqop_rtop c o : seqop c = Some o <-> binary o /\ rtop c = lvl K o.
Proof.
  split.
  - destruct c; try discriminate; intros [= <-]; (split; [|reflexivity]); [discriminate | apply of_binary].
  - intros [Hb E]. pose proof (lvl_range o).
    destruct c; cbn in E |- *; try lia; apply lvl_inj in E; subst; easy.
Qed.

Definition A (c : cond) := forall i rest, rtop c <= i <= 3 -> stops i rest ->
  PE i (conv K false c ++ rest) (den c) rest.

Lemma A_operand c i : A c -> rtop c <= i -> Operand i (conv K false c) (den c).
Proof.
  intros H. apply Operand_lift. intros rest. apply H. split; [apply le_n | apply rtop_le3].
Qed.
Lemma operand_A c : Operand (rtop c) (conv K false c) (den c) -> A c.
Proof. intros H i rest Hi. revert rest. now apply (Operand_lift K asg (rtop c)). Qed.

Definition B (c : cond) := forall o, seqop c = Some o ->
  exists k, lvl K o = S k /\ OpSeq o k (conv K false c) (den c).

Lemma arg_opseq (o : op) k a : binary o -> lvl K o = S k ->
  wf a -> A a -> B a -> OpSeq o k (tokens_of false o a) (den a).
Proof.
  intros Hb Hk Hw HA HB. unfold tokens_of.
  (* in parentheses a is one operand; without, it is a sequence of o itself or binds tighter *)
  destruct (cmp K o a) eqn:Ec; [|apply os1, Operand_group, A_operand; [exact HA | apply rtop_le3]].
  apply rtop_cmp in Ec; auto. destruct (Nat.eq_dec (rtop a) (lvl K o)) as [E|E].
  - destruct (HB o (proj2 (seqop_rtop _ _) (conj Hb E))) as (k' & Hk' & Hs). replace k with k' by lia. exact Hs.
  - apply os1, A_operand; auto. lia.
Qed.

Lemma join_opseq (b : bop) k args : lvl K (of_bop b) = S k ->
  args <> [] -> Forall wf args -> Forall (fun a => wf a -> A a /\ B a) args ->
  OpSeq (of_bop b) k (join (TOp (of_bop b)) (map (tokens_of false (of_bop b)) args))
        (match b with BAnd => forallb den args | BOr => existsb den args end).
Proof.
  intros Hk Hne Hw IH. rewrite Forall_forall in Hw, IH. apply OpSeq_join; auto.
  intros a Ha. destruct (IH a Ha (Hw a Ha)). apply arg_opseq; auto. apply of_binary.
Qed.

Lemma seq_AB c o : seqop c = Some o ->
  (forall k, lvl K o = S k -> OpSeq o k (conv K false c) (den c)) -> A c /\ B c.
Proof.
  intros Ho Hseq. destruct (lvl_pos K lvl_range o) as [k Hk]. destruct (proj1 (seqop_rtop _ _) Ho) as [Hb Hr].
  split.
  - apply operand_A. rewrite Hr, Hk. eapply OpSeq_head; eauto.
  - intros o' E. rewrite Ho in E. injection E as <-. eauto.
Qed.

Lemma leaf_AB c : seqop c = None -> Operand (rtop c) (conv K false c) (den c) -> A c /\ B c.
Proof. intros E H. split; [now apply operand_A | intros o; now rewrite E]. Qed.

Lemma Operand_inlist i (b : bop) fl X (h : X -> nat) (d : X -> bool) l :
  (forall x, In x l -> d x = asg (h x)) ->
  Operand i [TIn (match b with BOr => true | BAnd => false end) fl (map h l)]
          (match b with BAnd => forallb d l | BOr => existsb d l end).
Proof.
  intros H.
  assert (E : existsb d l = existsb asg (map h l) /\ forallb d l = forallb asg (map h l)).
  { induction l as [|x l IH]; [now split|].
    destruct IH as [I1 I2]; [intros y Hy; apply H; now right|].
    cbn. now rewrite (H x (or_introl eq_refl)), I1, I2. }
  destruct E as [E1 E2], b; rewrite ?E1, ?E2; apply Operand_in.
Qed.

Lemma decide_in_atoms o args f : decide_in K o args = Some f ->
  forall x, In x args -> den x = asg (atom_of x).
Proof.
  unfold decide_in. destruct (negb _); [discriminate|].
  destruct args as [|c r]; [discriminate|].
  destruct (in_field c) as [g|] eqn:Eg; [|discriminate].
  destruct (forallb _ (c :: r) && _) eqn:Ef; [|discriminate].
  intros _ x Hx. apply andb_true_iff in Ef. destruct Ef as [Ef _].
  rewrite forallb_forall in Ef. specialize (Ef x Hx).
  destruct x as [[s|s| | |] [ff|] n a| | | | |]; simpl in Ef; try discriminate; reflexivity.
Qed.

Lemma conv_un : not_eq K = false -> forall c un, conv K un c = conv K false c.
Proof.
  intros Hm. induction c as [k f n a|args IH|f ps|a|a IH|o args IH] using cond_ind'; intros un.
  - cbn [conv]. now rewrite Hm.
  - rewrite !conv_exp. f_equal. apply map_ext_in. intros a Ha. rewrite Forall_forall in IH.
    unfold tokens_of. now rewrite (IH a Ha un).
  - cbn [conv]. now rewrite Hm.
  - reflexivity.
  - reflexivity.
  - rewrite !conv_bin. destruct (decide_in K o args); [reflexivity|]. f_equal. apply map_ext_in.
    intros a Ha. rewrite Forall_forall in IH. unfold tokens_of. now rewrite (IH a Ha un).
Qed.

Theorem main c : wf c -> A c /\ B c.
Proof.
  induction c as [k f n a|args IH|f ps|a|a IH|o args IH] using cond_ind'; intros Hw.
  - apply leaf_AB; [reflexivity|]. cbn [conv den]. rewrite andb_false_r. apply Operand_pos.
  - apply seq_AB with OOr; auto. intros k Hk. apply wf_exp in Hw as [Hne Hw].
    rewrite conv_exp. now apply (join_opseq BOr).
  - (* non-native CIDR: fresh OR *)
    apply leaf_AB; [reflexivity|]. cbn [conv den wf] in *. destruct (_ && _).
    + now apply (Operand_inlist _ BOr).
    + destruct ps as [|p [|q ps']]; [easy| |].
      * cbn [existsb]. rewrite andb_false_r, orb_false_r. apply Operand_pos.
      * apply Operand_group. destruct (lvl_pos K lvl_range OOr) as [k Hk].
        apply (Operand_lift K asg (S k)); [|rewrite <- Hk; apply lvl_range].
        apply OpSeq_head with OOr; auto; [|discriminate]. apply (OpSeq_join K asg BOr); [discriminate|].
        intros x _. rewrite andb_false_r. apply os1, Operand_pos.
  - (* exists: false rendered as NOT exists *)
    destruct Hw as [Hl Hm]. apply leaf_AB; [reflexivity|]. cbn [conv den rtop]. rewrite Hm, Hl.
    apply Operand_not; auto. apply Operand_pos.
  - destruct Hw as [Hw Hmode]. destruct (IH Hw) as [HA _]. apply leaf_AB; [reflexivity|].
    rewrite conv_not. cbn [den rtop top]. destruct (lvl_pos K lvl_range ONot) as [k Hk]. rewrite Hk.
    destruct (not_eq K) eqn:Em.
    + (* not-equals mode: the argument is a negatable atom, rendered with the negated template *)
      destruct Hmode as [|Hmode]; [congruence|]. destruct a as [kk f [|] x| | | | |]; try contradiction.
      cbn [not_body conv den]. rewrite Em, <- xorb_true_r. apply Operand_atom.
    + apply Operand_not; auto. unfold not_body. rewrite (conv_un Em).
      (* in parentheses the argument parses from whatever level; bare, it is a leaf or a NOT exists *)
      destruct a; try (apply Operand_group, A_operand; [exact HA | apply rtop_le3]);
        apply A_operand; auto; cbn; lia.
  - apply seq_AB with (of_bop o); auto. intros k Hk. apply wf_bin in Hw as [Hne Hw].
    rewrite conv_bin. destruct (decide_in K o args) as [f|] eqn:Ed; [|now apply join_opseq].
    apply os1, Operand_inlist, (decide_in_atoms _ _ _ Ed).
Qed.

Theorem structure c : wf c -> exists f, pe (lvl K) asg f 3 (conv K false c) = Some (den c, []).
Proof.
  intros Hw. destruct (main c Hw) as [HA _].
  pose proof (A_operand c 3 HA (rtop_le3 c) [] I) as H. rewrite app_nil_r in H. exact H.
Qed.
End M.
