(* The target parser of Spec/Target.v as a rule system.  A run of pe/loop that succeeds is built from one rule
   per branch of the code (runs_ind); PE/LOOP - success with some fuel - are closed under the same rules.  On top
   of that: where a parse at level i may stop (stops), lifting a parse to a looser level (lift_le), and operands and
   operator sequences (Operand, OpSeq), the vocabulary in which Proofs/BackendMainP.v reads the converted condition. *)
From Coq Require Import List Arith Bool Lia.
From PS Require Import Model.Backend Spec.Target.
Import ListNotations.
Open Scope nat_scope.

Lemma op_eqb_eq a b : op_eqb a b = true <-> a = b.
Proof. destruct a, b; simpl; split; congruence. Qed.

Lemma join_cons (s : tok) x y l : join s (x :: y :: l) = x ++ s :: join s (y :: l).
Proof. reflexivity. Qed.

Section S.
Variable K : cfg.
Variable asg : nat -> bool.
Hypothesis lvl_range : forall o, 1 <= lvl K o <= 3.
Hypothesis lvl_inj : forall a b, lvl K a = lvl K b -> a = b.

Notation pe := (pe (lvl K) asg).
Notation loop := (loop (lvl K) asg).
Notation opat := (opat (lvl K)).

Definition binary (o : op) := o <> ONot.
Definition hd_is (t : tok) (ts : list tok) := match ts with x :: _ => x = t | [] => False end.

Lemma hd_dec o ts : (exists r, ts = TOp o :: r) \/ ~ hd_is (TOp o) ts.
Proof.
  destruct ts as [|t r]; [right; intros []|]. destruct t as [| |o'| |]; try (right; discriminate).
  destruct (op_eqb o' o) eqn:E; [apply op_eqb_eq in E; subst; eauto|].
  right. intros [= ->]. now rewrite (proj2 (op_eqb_eq o o)) in E.
Qed.

Lemma pe_S f i ts : pe (S f) i ts =
    match i with
    | 0 => match ts with
           | TAtom a n :: r => Some (xorb (asg a) n, r)
           | TIn d _ l :: r => Some ((if d then existsb asg l else forallb asg l), r)
           | TL :: r => match pe f 3 r with
                        | Some (v, TR :: r') => Some (v, r')
                        | _ => None end
           | _ => None end
    | S k => match opat i with
             | None => pe f k ts
             | Some ONot => match ts with
                            | TOp ONot :: r => match pe f i r with
                                               | Some (v, r') => Some (negb v, r')
                                               | None => None end
                            | _ => pe f k ts end
             | Some o => match pe f k ts with
                         | Some (v, r) => loop f o k v r
                         | None => None end
             end
    end.
Proof. reflexivity. Qed.
Lemma loop_S f o k v r : loop (S f) o k v r =
    match r with
    | TOp o' :: r' => if op_eqb o' o then
                        match pe f k r' with
                        | Some (v', r'') => loop f o k (comb o v v') r''
                        | None => None end
                      else Some (v, r)
    | _ => Some (v, r)
    end.
Proof. reflexivity. Qed.

Lemma pe_not_skip f k ts : opat (S k) = Some ONot -> ~ hd_is (TOp ONot) ts -> pe (S f) (S k) ts = pe f k ts.
Proof.
  intros Ho Hh. rewrite pe_S, Ho. destruct ts as [|[| |[]| |] r]; auto. now elim Hh.
Qed.
Lemma pe_bin f k o ts : opat (S k) = Some o -> binary o ->
  pe (S f) (S k) ts = match pe f k ts with Some (v, r) => loop f o k v r | None => None end.
Proof. intros Ho Hb. rewrite pe_S, Ho. destruct o; [now elim Hb| |]; reflexivity. Qed.
Lemma loop_stop f o k v r : ~ hd_is (TOp o) r -> loop (S f) o k v r = Some (v, r).
Proof.
  intros Hh. rewrite loop_S. destruct r as [|[| |o'| |] r']; auto.
  destruct (op_eqb o' o) eqn:E; auto. apply op_eqb_eq in E. subst. now elim Hh.
Qed.
Lemma loop_step f o k v r : loop (S f) o k v (TOp o :: r) =
  match pe f k r with Some (v', r') => loop f o k (comb o v v') r' | None => None end.
Proof. rewrite loop_S. now destruct o. Qed.

(* P and Q carry the fuel of the run, so that statements about fuel (enough_fuel) are instances as well *)
Lemma runs_ind (P : nat -> nat -> list tok -> bool -> list tok -> Prop)
               (Q : nat -> op -> nat -> bool -> list tok -> bool -> list tok -> Prop) :
  (forall f a n r, P (S f) 0 (TAtom a n :: r) (xorb (asg a) n) r) ->
  (forall f d fl l r, P (S f) 0 (TIn d fl l :: r) (if d then existsb asg l else forallb asg l) r) ->
  (forall f ts v r, P f 3 ts v (TR :: r) -> P (S f) 0 (TL :: ts) v r) ->
  (forall f k ts v r, opat (S k) = None -> P f k ts v r -> P (S f) (S k) ts v r) ->
  (forall f k ts v r, opat (S k) = Some ONot -> ~ hd_is (TOp ONot) ts -> P f k ts v r -> P (S f) (S k) ts v r) ->
  (forall f k ts v r, opat (S k) = Some ONot -> P f (S k) ts v r -> P (S f) (S k) (TOp ONot :: ts) (negb v) r) ->
  (forall f k o ts v r v' r', opat (S k) = Some o -> binary o ->
     P f k ts v r -> Q f o k v r v' r' -> P (S f) (S k) ts v' r') ->
  (forall f o k v r, ~ hd_is (TOp o) r -> Q (S f) o k v r v r) ->
  (forall f o k v r1 v1 r2 v' r', P f k r1 v1 r2 -> Q f o k (comb o v v1) r2 v' r' ->
     Q (S f) o k v (TOp o :: r1) v' r') ->
  forall f, (forall i ts v r, pe f i ts = Some (v, r) -> P f i ts v r) /\
            (forall o k v r v' r', loop f o k v r = Some (v', r') -> Q f o k v r v' r').
Proof.
  intros Ratom Rin Rgroup Rnone Rskip Rnot Rbin Rstop Rstep.
  induction f as [|f [IHp IHl]]; split; intros; try discriminate.
  - destruct i as [|k].
    + rewrite pe_S in H. destruct ts as [|[a n|d fl l|o| |] t]; try discriminate.
      * injection H as <- <-. apply Ratom.
      * injection H as <- <-. apply Rin.
      * destruct (pe f 3 t) as [[v0 [|[| | | |] r0]]|] eqn:E; try discriminate.
        injection H as <- <-. apply Rgroup, IHp, E.
    + destruct (opat (S k)) as [o|] eqn:Eo; [|rewrite pe_S, Eo in H; now apply Rnone, IHp].
      assert (Hbin : binary o -> P (S f) (S k) ts v r).
      { intros Hb. rewrite (pe_bin _ _ o) in H by assumption.
        destruct (pe f k ts) as [[v0 r0]|] eqn:E; [eauto|discriminate]. }
      destruct o; [|apply Hbin; discriminate..]. destruct (hd_dec ONot ts) as [[t ->]|Hh].
      * rewrite pe_S, Eo in H. destruct (pe f (S k) t) as [[v0 r0]|] eqn:E; [|discriminate].
        injection H as <- <-. now apply Rnot, IHp.
      * rewrite pe_not_skip in H by assumption. now apply Rskip, IHp.
  - destruct (hd_dec o r) as [[t ->]|Hh].
    + rewrite loop_step in H. destruct (pe f k t) as [[v0 r0]|] eqn:E; [eauto|discriminate].
    + rewrite loop_stop in H by assumption. injection H as <- <-. now apply Rstop.
Qed.

(* The second bound is level + 1 + 4 * (tokens consumed), written without subtraction.  A call at level i
   descends through at most i + 1 calls before a token is consumed, and a consumed token (parenthesis, NOT,
   operator) sets the level back by at most 3: four calls per token.  The loop at level k spends one call of
   its own before each operand, which is read at level k: k + 2. *)
Lemma enough_fuel : forall f,
  (forall i ts v r, pe f i ts = Some (v, r) -> length r < length ts /\
     forall f', f <= f' \/ i + 1 + 4 * length ts <= f' + 4 * length r -> pe f' i ts = Some (v, r)) /\
  (forall o k v r v' r', loop f o k v r = Some (v', r') -> length r' <= length r /\
     forall f', f <= f' \/ k + 2 + 4 * length r <= f' + 4 * length r' -> loop f' o k v r = Some (v', r')).
Proof.
  apply runs_ind; cbn [length]; intros; (split; [lia|]); intros [|f'] L; try lia.
  (* one goal per rule, in the order of runs_ind; H, H0, .. are the premises of the rule in their order *)
  - reflexivity.
  - reflexivity.
  - rewrite pe_S, (proj2 H) by lia. reflexivity.
  - rewrite pe_S, H. apply H0. lia.
  - rewrite pe_not_skip by assumption. apply H1. lia.
  - rewrite pe_S, H, (proj2 H0) by lia. reflexivity.
  - rewrite (pe_bin _ _ o), (proj2 H1) by (assumption || lia). apply H2. lia.
  - now apply loop_stop.
  - rewrite loop_step, (proj2 H) by lia. apply H0. lia.
Qed.
Lemma pe_fuel f f' i ts v r : pe f i ts = Some (v, r) ->
  f <= f' \/ i + 1 + 4 * length ts <= f' + 4 * length r -> pe f' i ts = Some (v, r).
Proof. intros H. now apply (enough_fuel f). Qed.
Lemma pe_mono f f' i ts x : pe f i ts = Some x -> f <= f' -> pe f' i ts = Some x.
Proof. destruct x. intros H L. apply (pe_fuel f); auto. Qed.
Lemma loop_mono f f' o k v r x : loop f o k v r = Some x -> f <= f' -> loop f' o k v r = Some x.
Proof. destruct x. intros H L. apply (proj2 (enough_fuel f) _ _ _ _ _ _ H). now left. Qed.

Definition PE i ts v r := exists f, pe f i ts = Some (v, r).
Definition LOOP o k v r v' r' := exists f, loop f o k v r = Some (v', r').

Lemma PE_atom a n r : PE 0 (TAtom a n :: r) (xorb (asg a) n) r.
Proof. exists 1. reflexivity. Qed.
Lemma PE_in d fl l r : PE 0 (TIn d fl l :: r) (if d then existsb asg l else forallb asg l) r.
Proof. exists 1. reflexivity. Qed.
Lemma PE_group ts v r : PE 3 ts v (TR :: r) -> PE 0 (TL :: ts) v r.
Proof. intros [f H]. exists (S f). rewrite pe_S, H. reflexivity. Qed.
Lemma PE_none k ts v r : opat (S k) = None -> PE k ts v r -> PE (S k) ts v r.
Proof. intros Ho [f H]. exists (S f). rewrite pe_S, Ho. exact H. Qed.
Lemma PE_not_skip k ts v r :
  opat (S k) = Some ONot -> ~ hd_is (TOp ONot) ts -> PE k ts v r -> PE (S k) ts v r.
Proof. intros Ho Hh [f H]. exists (S f). now rewrite pe_not_skip. Qed.
Lemma PE_not_take k ts v r :
  opat (S k) = Some ONot -> PE (S k) ts v r -> PE (S k) (TOp ONot :: ts) (negb v) r.
Proof. intros Ho [f H]. exists (S f). rewrite pe_S, Ho, H. reflexivity. Qed.
Lemma PE_bin k o ts v r v' r' : opat (S k) = Some o -> binary o ->
  PE k ts v r -> LOOP o k v r v' r' -> PE (S k) ts v' r'.
Proof.
  intros Ho Hb [f1 H1] [f2 H2]. exists (S (f1 + f2)).
  rewrite (pe_bin _ _ o), (pe_mono _ (f1 + f2) _ _ _ H1) by (assumption || lia).
  apply (loop_mono _ _ _ _ _ _ _ H2). lia.
Qed.
Lemma LOOP_stop o k v r : ~ hd_is (TOp o) r -> LOOP o k v r v r.
Proof. exists 1. now apply loop_stop. Qed.
Lemma LOOP_step o k v r1 v1 r2 v' r' :
  PE k r1 v1 r2 -> LOOP o k (comb o v v1) r2 v' r' -> LOOP o k v (TOp o :: r1) v' r'.
Proof.
  intros [f1 H1] [f2 H2]. exists (S (f1 + f2)).
  rewrite loop_step, (pe_mono _ (f1 + f2) _ _ _ H1) by lia.
  apply (loop_mono _ _ _ _ _ _ _ H2). lia.
Qed.

Definition stops (i : nat) (rest : list tok) : Prop :=
  match rest with
  | [] => True | TR :: _ => True
  | TOp o :: _ => binary o /\ i < lvl K o
  | _ => False end.
Lemma stops_le i j r : stops i r -> j <= i -> stops j r.
Proof. destruct r as [|[a n|d fl l|o| |] r]; simpl; auto. intros [? ?] ?. split; auto. lia. Qed.
Lemma stops_not_hd i r o : stops i r -> lvl K o <= i -> ~ hd_is (TOp o) r.
Proof.
  destruct r as [|[a n|d fl l|o'| |] r]; simpl; auto; try congruence.
  intros [? ?] ? [= ->]. lia.
Qed.

Lemma lvl_eqb a b : (lvl K a =? lvl K b) = op_eqb a b.
Proof.
  destruct (Nat.eqb_spec (lvl K a) (lvl K b)) as [E|E].
  - apply lvl_inj in E. subst. now destruct b.
  - destruct a, b; try reflexivity; now elim E.
Qed.
Lemma opat_lvl o : opat (lvl K o) = Some o.
Proof. unfold Target.opat. rewrite !lvl_eqb. now destruct o. Qed.
Lemma opat_some i o : opat i = Some o -> lvl K o = i.
Proof.
  unfold Target.opat.
  repeat (destruct (_ =? i) eqn:E; [apply Nat.eqb_eq in E; congruence|clear E]). discriminate.
Qed.

Lemma not_level i ts v r : PE i ts v r -> hd_is (TOp ONot) ts -> lvl K ONot <= i.
Proof.
  intros [f H]. revert i ts v r H.
  apply (runs_ind (fun _ i ts _ _ => hd_is (TOp ONot) ts -> lvl K ONot <= i) (fun _ _ _ _ _ _ _ => True));
    intros; auto; try discriminate.
  (* the rule that takes a NOT; those that descend come from a tighter level, the others start otherwise *)
  now rewrite (opat_some _ _ H).
Qed.

Lemma lift_le ts v rest j i : PE j ts v rest -> j <= i -> stops i rest -> PE i ts v rest.
Proof.
  induction 2 as [|i Hle IH]; intros Hs; auto.
  assert (P : PE i ts v rest) by (eapply IH, stops_le; eauto).
  destruct (opat (S i)) as [o|] eqn:Eo; [|now apply PE_none].
  pose proof (opat_some _ _ Eo) as Hl.
  assert (Hbin : binary o -> PE (S i) ts v rest).
  { intros Hb. eapply PE_bin; eauto. apply LOOP_stop. eapply stops_not_hd; eauto. lia. }
  destruct o; [|apply Hbin; discriminate..].
  (* the NOT level, where it lies in between, finds no NOT to take: the text would not have been read at level j *)
  apply PE_not_skip; auto. intros Hn. apply (not_level _ _ _ _ H) in Hn. lia.
Qed.
Lemma lift ts v rest : forall d j, PE j ts v rest -> j + d <= 3 -> stops (j + d) rest ->
  (forall m, j < m <= j + d -> lvl K ONot = m -> ~ hd_is (TOp ONot) ts) ->
  PE (j + d) ts v rest.
Proof. intros d j H _ Hs _. apply lift_le with j; auto. lia. Qed.

Definition Operand (j : nat) (ts : list tok) (v : bool) :=
  forall rest, stops j rest -> PE j (ts ++ rest) v rest.

Lemma Operand_lift j i ts v : Operand j ts v -> j <= i -> Operand i ts v.
Proof. intros H Hi rest Hs. apply lift_le with j; auto. apply H. eapply stops_le; eauto. Qed.
Lemma Operand_atom i a n : Operand i [TAtom a n] (xorb (asg a) n).
Proof. apply (Operand_lift 0); [intros rest _; apply PE_atom | lia]. Qed.
Lemma Operand_pos i a : Operand i [TAtom a false] (asg a).
Proof. rewrite <- (xorb_false_r (asg a)). apply Operand_atom. Qed.
Lemma Operand_in i d fl l : Operand i [TIn d fl l] (if d then existsb asg l else forallb asg l).
Proof. apply (Operand_lift 0); [intros rest _; apply PE_in | lia]. Qed.
Lemma Operand_group i ts v : Operand 3 ts v -> Operand i (group ts) v.
Proof.
  intros H. apply (Operand_lift 0); [|lia].
  intros rest _. unfold group. cbn [app]. rewrite <- app_assoc. apply PE_group, H. exact I.
Qed.
Lemma Operand_not k ts v : lvl K ONot = S k ->
  Operand (S k) ts v -> Operand (S k) (TOp ONot :: ts) (negb v).
Proof. intros Hk H rest Hs. apply PE_not_take; [rewrite <- Hk; apply opat_lvl | now apply H]. Qed.

Inductive OpSeq (o : op) (k : nat) : list tok -> bool -> Prop :=
| os1 ts v : Operand k ts v -> OpSeq o k ts v
| osS ts v ts' v' : Operand k ts v -> OpSeq o k ts' v' ->
    OpSeq o k (ts ++ TOp o :: ts') (comb o v v').

Lemma comb_assoc o a b c : comb o (comb o a b) c = comb o a (comb o b c).
Proof. destruct o, a, b, c; reflexivity. Qed.

Lemma OpSeq_loop o k ts v : OpSeq o k ts v -> binary o -> lvl K o = S k ->
  forall acc rest, stops (S k) rest ->
  LOOP o k acc (TOp o :: ts ++ rest) (comb o acc v) rest.
Proof.
  induction 1 as [ts v Hop | ts v ts' v' Hop Hs IH]; intros Hb Hl acc rest Hst.
  - eapply LOOP_step.
    + apply Hop. eapply stops_le; eauto.
    + apply LOOP_stop. eapply stops_not_hd; eauto. lia.
  - rewrite <- app_assoc. cbn [app]. eapply LOOP_step.
    + apply Hop. simpl. split; auto. lia.
    + rewrite <- comb_assoc. apply IH; auto.
Qed.

Lemma OpSeq_head o k ts v : OpSeq o k ts v -> binary o -> lvl K o = S k -> Operand (S k) ts v.
Proof.
  intros H Hb Hl rest Hst.
  assert (Ho: opat (S k) = Some o) by (rewrite <- Hl; apply opat_lvl).
  destruct H as [ts v Hop | ts v ts' v' Hop Hs].
  - eapply PE_bin; eauto.
    + apply Hop. eapply stops_le; eauto.
    + apply LOOP_stop. eapply stops_not_hd; eauto. lia.
  - rewrite <- app_assoc. cbn [app]. eapply PE_bin; eauto.
    + apply Hop. simpl. split; auto. lia.
    + eapply OpSeq_loop; eauto.
Qed.

Lemma OpSeq_app o k a va b vb : OpSeq o k a va -> OpSeq o k b vb ->
  OpSeq o k (a ++ TOp o :: b) (comb o va vb).
Proof.
  induction 1 as [ts v Hop | ts v ts' v' Hop Hs IH]; intros Hb.
  - now apply osS.
  - rewrite <- app_assoc. cbn [app]. rewrite comb_assoc. apply osS; auto.
Qed.

Lemma OpSeq_join (b : bop) k (X : Type) (g : X -> list tok) (d : X -> bool) l : l <> [] ->
  (forall x, In x l -> OpSeq (of_bop b) k (g x) (d x)) ->
  OpSeq (of_bop b) k (join (TOp (of_bop b)) (map g l))
        (match b with BAnd => forallb d l | BOr => existsb d l end).
Proof.
  induction l as [|x [|y l] IH]; intros Hne H; [easy| |].
  - replace (match b with BAnd => _ | BOr => _ end) with (d x)
      by (destruct b; cbn; now rewrite ?andb_true_r, ?orb_false_r).
    apply H. now left.
  - cbn [map]. rewrite join_cons.
    replace (match b with BAnd => _ | BOr => _ end)
      with (comb (of_bop b) (d x) (match b with BAnd => forallb d (y :: l) | BOr => existsb d (y :: l) end))
      by now destruct b.
    apply OpSeq_app; [apply H; now left | apply IH; [easy | intros z Hz; apply H; now right]].
Qed.

Lemma lvl_pos o : exists k, lvl K o = S k.
Proof. destruct (lvl_range o). destruct (lvl K o); [lia|eauto]. Qed.
Lemma lvl_le3 o : lvl K o <= 3.
Proof. destruct (lvl_range o); lia. Qed.
Lemma of_binary o : binary (of_bop o). Proof. destruct o; discriminate. Qed.

End S.
