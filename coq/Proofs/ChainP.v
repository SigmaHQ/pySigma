(* Chains of encoding modifiers applied by SigmaDetectionItem.from_mapping: end-to-end statements
   for [wide | utf16be]? followed by base64 / base64offset, and "no outcome other than a value or a
   Sigma error". *)
From Coq Require Import NArith List Lia.
From PS Require Import Base.Chars Base.Outcome Model.SString Spec.Items Spec.Utf Spec.B64 Model.Enc
     Proofs.OutcomeP Proofs.SStringP Proofs.B64P Proofs.EncP.
Import ListNotations.
Open Scope N_scope.

Lemma mod_str_safe m v : safe (mod_str m v).
Proof.
  destruct m; cbn [mod_str]; try exact I;
    try (apply obind_safe; [apply recode_safe | intros; exact I]).
  all: destruct (contains_special v); [exact I|]; destruct (bytes_of v); exact I.
Qed.

Lemma sval_ind_in (P : sval -> Prop) :
  (forall v, P (VStr v)) -> (forall l, (forall y, In y l -> P y) -> P (VExp l)) -> P VOther -> forall x, P x.
Proof.
  intros Hs He Ho. fix IH 1. intros [v|l|]; [apply Hs | apply He | apply Ho].
  induction l as [|y r IHr]; intros z Hz; [destruct Hz|]. destruct Hz as [<-|Hz]; [apply IH | apply IHr, Hz].
Qed.

Lemma apply_val_safe m x : safe (apply_val m x).
Proof.
  induction x as [v|l IH|] using sval_ind_in; cbn [apply_val]; [apply mod_str_safe | | exact I].
  rewrite omap_traverse. apply obind_safe; [apply traverse_safe, IH | intros; exact I].
Qed.

Lemma apply_chain_safe ms : forall xs, safe (apply_chain ms xs).
Proof.
  induction ms as [|m ms IH]; intros xs; [exact I|]. cbn [apply_chain]. unfold apply_all. rewrite omap_traverse.
  apply obind_safe; [apply traverse_safe; intros y _; apply apply_val_safe | intros ys; apply IH].
Qed.

Theorem from_mapping_no_crash ms ps c : from_mapping ms ps <> Crash c.
Proof. exact (safe_no_crash _ (apply_chain_safe ms _) c). Qed.

(* the octets a character contributes after the encoding prefix e of a chain: none, wide or utf16be;
   the chain theorems speak of these prefixes only *)
Definition enc_fun (e : list emod) : option (char -> list N) :=
  match e with
  | [] => Some utf8_char
  | [MWide] => Some utf16le_char
  | [MUtf16be] => Some utf16be_char
  | _ => None
  end.

Lemma apply_chain_str m rest v :
  apply_chain (m :: rest) [VStr v] = obind (mod_str m v) (fun a => apply_chain rest [a]).
Proof.
  cbn [apply_chain]. unfold apply_all. cbn [apply_val omap]. destruct (mod_str m v); reflexivity.
Qed.

Lemma enc_stage e f s rest xs : enc_fun e = Some f ->
  from_mapping (e ++ rest) [PVStr s] = Ok xs ->
  exists w, apply_chain rest [VStr w] = Ok xs /\ contains_placeholder w = false
            /\ vstream w = stream f (iparse s)
            /\ all_lit (items w) = all_lit (iparse s) /\ utf8 (lits (items w)) = flat_map f (lits (iparse s)).
Proof.
  intros He H. unfold from_mapping in H. cbn [map sigma_type] in H. rewrite <- parse_items.
  destruct e as [|m [|m' e']]; [| |destruct m; discriminate].
  - inversion He; subst f. exists (parse true s).
    split; [exact H|]. split; [apply parse_placeholder_free|]. split; [reflexivity | split; reflexivity].
  - cbn [app] in H. rewrite apply_chain_str in H. apply obind_ok in H as (a & E & H).
    assert (R : exists r, a = VStr r /\ recode (flat_map f) (parse true s) = Ok r).
    { destruct m; try discriminate; injection He as <-; apply obind_ok in E as (r & Er & [= <-]);
        exists r; split; reflexivity || exact Er. }
    destruct R as (r & -> & Hr). exists r. split; [exact H|].
    split; [rewrite (recode_placeholder _ _ _ Hr); apply parse_placeholder_free|].
    split; [exact (recode_stream _ _ _ Hr) | exact (recode_lits _ _ _ Hr)].
Qed.

Theorem chain_base64 e f s xs : enc_fun e = Some f ->
  from_mapping (e ++ [MBase64]) [PVStr s] = Ok xs ->
  exists w, xs = [VStr w] /\ all_lit (iparse s) = true
            /\ items w = map Lit (rfc4648 (flat_map f (lits (iparse s)))).
Proof.
  intros He H. destruct (enc_stage e f s _ xs He H) as (w0 & Hc & Hp & _ & <- & <-).
  rewrite apply_chain_str in Hc. apply obind_ok in Hc as (a & E & [= <-]).
  destruct (base64_value w0 a Hp E) as (w & -> & A & I).
  exists w. split; [reflexivity|]. split; [exact A | exact I].
Qed.

Theorem chain_base64offset e f s xs : enc_fun e = Some f ->
  from_mapping (e ++ [MBase64Offset]) [PVStr s] = Ok xs ->
  let B := flat_map f (lits (iparse s)) in
  exists w0 w1 w2, xs = [VExp [VStr w0; VStr w1; VStr w2]] /\ all_lit (iparse s) = true
    /\ items w0 = map Lit (variant 0 B) /\ items w1 = map Lit (variant 1 B) /\ items w2 = map Lit (variant 2 B)
    /\ (forall pre suf, bytes_ok pre = true -> bytes_ok suf = true ->
          exists w, In w [w0; w1; w2] /\ infix (lits (items w)) (rfc4648 (pre ++ B ++ suf))).
Proof.
  intros He H B. destruct (enc_stage e f s _ xs He H) as (v0 & Hc & Hp & _ & <- & EB). fold B in EB.
  rewrite apply_chain_str in Hc. apply obind_ok in Hc as (a & E & [= <-]).
  destruct (base64offset_value v0 a Hp E) as (w0 & w1 & w2 & -> & A & HB & I0 & I1 & I2).
  rewrite EB in HB, I0, I1, I2.
  exists w0, w1, w2. split; [reflexivity|]. split; [exact A|].
  split; [exact I0|]. split; [exact I1|]. split; [exact I2|].
  (* pre and suf need not consist of octets: offset_hit_rfc asks that of the payload only *)
  intros pre suf _ _. destruct (offset_hit_rfc pre B suf HB) as [i [Hi Hinf]].
  destruct i as [|[|[|i]]]; [exists w0 | exists w1 | exists w2 | clear - Hi; lia];
    (split; [cbn [In]; auto|]); rewrite ?I0, ?I1, ?I2, lits_map_Lit; exact Hinf.
Qed.
