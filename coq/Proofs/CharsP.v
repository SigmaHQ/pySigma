(* What several properties need and no single one owns: facts about the string functions of Base/Chars.v
   (equality, prefixes, the escape character); the functions that several models define alike, each once under a
   name of its own, with lemmas that reach the models' copies by conversion (duplicates, the star of a wildcard
   pattern, selectors under a prefix, lists of options, string-keyed association lists with Python's dict update,
   joining); a wrapper that hides the fuel of a reader; and list facts that the standard library lacks. *)
From Coq Require Import PeanoNat NArith List Bool Permutation.
From PS Require Import Base.Chars.
Import ListNotations.

Lemma str_eqb_spec a b : reflect (a = b) (str_eqb a b).
Proof. apply iff_reflect. symmetry. apply str_eqb_eq. Qed.

Lemma str_eqb_sym a b : str_eqb a b = str_eqb b a.
Proof. apply eq_true_iff_eq. rewrite !str_eqb_eq. split; auto. Qed.

Lemma str_eqb_app_l l a b : str_eqb (l ++ a) (l ++ b) = str_eqb a b.
Proof. induction l as [|x l IH]; simpl; [reflexivity|]. now rewrite N.eqb_refl. Qed.

Lemma str_eqb_neq a b : a <> b -> str_eqb a b = false.
Proof. intros H. destruct (str_eqb a b) eqn:E; [|reflexivity]. apply str_eqb_eq in E. contradiction. Qed.

Lemma option_eqb_eq {A} (eqb : A -> A -> bool) :
  (forall x y, eqb x y = true <-> x = y) -> forall a b, option_eqb eqb a b = true <-> a = b.
Proof. intros He [x|] [y|]; simpl; rewrite ?He; split; congruence. Qed.

Lemma existsb_eqb_In {A} (eqb : A -> A -> bool) x l :
  (forall a b, eqb a b = true <-> a = b) -> (existsb (eqb x) l = true <-> In x l).
Proof.
  intros He. rewrite existsb_exists. split.
  - intros (y & Hy & ->%He). exact Hy.
  - intros H. exists x. split; [exact H | apply He; reflexivity].
Qed.

Lemma mem_app c a b : mem c (a ++ b) = mem c a || mem c b.
Proof. unfold mem. apply existsb_app. Qed.

Lemma mem_neq c x l : mem c l = false -> mem x l = true -> N.eqb c x = false.
Proof. intros Hc Hx. destruct (N.eqb_spec c x) as [->|]; congruence. Qed.

(* the membership test that every model writes with existsb (mem_str, smem, in_strs) *)
Lemma existsb_str_In x l : existsb (str_eqb x) l = true <-> In x l.
Proof. apply existsb_eqb_In, str_eqb_eq. Qed.

(* A list of strings without its repeated entries, the last occurrence of each being kept (dedup in
   Determinism and Validators), and the test for repeated entries (nodupb in DetSpec and RefOrder): the
   lemmas apply to those definitions by conversion. *)
Fixpoint sdedup (l : list str) : list str :=
  match l with
  | [] => []
  | x :: r => if existsb (str_eqb x) r then sdedup r else x :: sdedup r
  end.

Lemma sdedup_In x l : In x (sdedup l) <-> In x l.
Proof.
  induction l as [|y r IH]; simpl; [tauto|].
  destruct (existsb (str_eqb y) r) eqn:E; simpl; rewrite IH; [|tauto].
  apply existsb_str_In in E. split; [auto | intros [<-|H]; auto].
Qed.

Lemma sdedup_NoDup l : NoDup (sdedup l).
Proof.
  induction l as [|y r IH]; simpl; [constructor|].
  destruct (existsb (str_eqb y) r) eqn:E; [exact IH|]. constructor; [|exact IH].
  rewrite sdedup_In, <- existsb_str_In. congruence.
Qed.

Fixpoint snodupb (l : list str) : bool :=
  match l with [] => true | x :: r => negb (existsb (str_eqb x) r) && snodupb r end.

Lemma snodupb_spec l : snodupb l = true <-> NoDup l.
Proof.
  induction l as [|x l IH]; simpl; [split; [constructor | reflexivity]|].
  now rewrite andb_true_iff, negb_true_iff, NoDup_cons_iff, IH, <- not_true_iff_false, existsb_str_In.
Qed.

(* "f holds of some suffix of n", which is what a '*' of a pattern asks of the name with f the match against the
   rest of the pattern: any_suffix in Glob, FGlob and ValidatorsSpec and star_any in Cond, FCond and VCond have this
   body and the lemmas apply to them by conversion; wild_match (Items) and glob (Determinism) have it as an inner
   fix in which f is not an argument, and reach it by an induction on the name. *)
Fixpoint some_suffix (f : str -> bool) (n : str) : bool :=
  f n || match n with [] => false | _ :: n' => some_suffix f n' end.

Lemma some_suffix_spec f n : some_suffix f n = true <-> exists m n', n = m ++ n' /\ f n' = true.
Proof.
  induction n as [|x n IH]; simpl.
  - rewrite orb_false_r. split.
    + intros H. exists [], []. auto.
    + intros (m & n' & E & H). destruct m; [|discriminate]. simpl in E. subst. exact H.
  - rewrite orb_true_iff, IH. split.
    + intros [H | (m & n' & E & H)].
      * exists [], (x :: n). auto.
      * exists (x :: m), n'. subst. auto.
    + intros (m & n' & E & H). destruct m as [|y m]; simpl in E.
      * left. subst. exact H.
      * right. inversion E; subst. exists m, n'. auto.
Qed.

Lemma some_suffix_end f n : f [] = true -> some_suffix f n = true.
Proof. intros H. induction n; simpl; [rewrite H; reflexivity|]. rewrite IHn. apply orb_true_r. Qed.

(* Selector patterns under a literal prefix (SigmaFilter.apply_on_rule renames the filter's detections and the
   patterns of its condition to "<prefix>_<name>"), for any matcher g that reads a character other than '*' as
   itself: Glob.globb and Determinism.glob are such. gsel g is the selector test that CondGrammar, FCondGrammar
   (selected) and Determinism (sel_match) define with this body over their matcher: the word "them" selects every
   name, and a name that begins with '_' is selected only by a pattern that does. Under a prefix px without '*'
   that begins with '_', a pattern selects among the names under px what its rest selects, and no other name. *)
Definition us_first (s : str) : bool := match s with c :: _ => N.eqb c c_us | [] => false end.
Definition word_them : str := [116; 104; 101; 109].

Section GlobPrefix.
  Variable g : str -> str -> bool.
  Hypothesis g_cons : forall c p n, N.eqb c c_star = false ->
    g (c :: p) n = match n with [] => false | d :: n' => N.eqb c d && g p n' end.

  Definition gsel (pat n : str) : bool :=
    (str_eqb pat word_them || g pat n) && (us_first pat || negb (us_first n)).

  Lemma glit_in l : ~ In c_star l -> forall p n, g (l ++ p) (l ++ n) = g p n.
  Proof.
    induction l as [|a l IH]; simpl; intros Hn p n; [reflexivity|].
    rewrite g_cons, N.eqb_refl by (apply N.eqb_neq; intros ->; tauto). apply IH. tauto.
  Qed.

  Lemma glit_out l : ~ In c_star l -> forall p k, prefixb l k = false -> g (l ++ p) k = false.
  Proof.
    induction l as [|a l IH]; simpl; intros Hn p k; [discriminate|].
    rewrite g_cons by (apply N.eqb_neq; intros ->; tauto). destruct k as [|d k]; [reflexivity|].
    destruct (N.eqb a d); [apply IH; tauto | reflexivity].
  Qed.

  Variable px : str.
  Hypothesis Hus : us_first px = true.
  Hypothesis Hst : ~ In c_star px.

  Lemma gsel_under q k : gsel (px ++ c_us :: q) k = g (px ++ c_us :: q) k.
  Proof.
    unfold gsel. destruct px as [|c r]; [discriminate|]. simpl in *. apply N.eqb_eq in Hus. subst c.
    apply andb_true_r.
  Qed.

  Lemma gsel_in q n : gsel (px ++ c_us :: q) (px ++ c_us :: n) = g q n.
  Proof. rewrite gsel_under, glit_in by exact Hst. rewrite g_cons by reflexivity. apply andb_true_l. Qed.

  Lemma gsel_out q k : prefixb px k = false -> gsel (px ++ c_us :: q) k = false.
  Proof. intros H. rewrite gsel_under. apply glit_out; assumption. Qed.
End GlobPrefix.

(* no key of m starts with p: what the redraw loop of apply_on_rule asks of a drawn prefix (fresh in Filter,
   prefix_free in Determinism have this body); no name under p is then a key *)
Definition no_prefix {V} (p : str) (m : list (str * V)) : bool :=
  forallb (fun kv => negb (prefixb p (fst kv))) m.

Lemma no_prefix_spec {V} p (m : list (str * V)) :
  no_prefix p m = true <-> forall k, In k (map fst m) -> prefixb p k = false.
Proof.
  unfold no_prefix. rewrite forallb_forall. split.
  - intros H k [kv [<- Hkv]]%in_map_iff. apply negb_true_iff, H, Hkv.
  - intros H kv Hkv. apply negb_true_iff, H, in_map, Hkv.
Qed.

Lemma no_prefix_under {V} p (m : list (str * V)) n : no_prefix p m = true -> ~ In (p ++ c_us :: n) (map fst m).
Proof. intros H Hin. rewrite no_prefix_spec in H. specialize (H _ Hin). rewrite prefixb_app in H. discriminate. Qed.

Lemma under_inj (p a b : str) : p ++ c_us :: a = p ++ c_us :: b -> a = b.
Proof. intros H%app_inv_head. now injection H. Qed.

(* An optional attribute c covers the attribute r: it is absent or equal to r ("self.x is None or self.x ==
   other.x" of SigmaLogSource.__contains__: attr_ok in Filter and ls_field_ok in PipeCond have this body). Equal
   attributes are covered, which is why the equality test in front of the attribute-wise test never decides. *)
Definition ocovers (c r : option str) : bool :=
  match c with None => true | Some _ => option_eqb str_eqb c r end.

Lemma ocovers_spec c r : ocovers c r = true <-> (c = None \/ c = r).
Proof.
  destruct c as [x|]; unfold ocovers; [|intuition].
  rewrite (option_eqb_eq _ str_eqb_eq). intuition discriminate.
Qed.

Lemma ocovers_eq c r : option_eqb str_eqb c r = true -> ocovers c r = true.
Proof. destruct c; [trivial | reflexivity]. Qed.

(* All the values of a list of options, if none is missing: all_some in Cond, FCond, Collection, Query, Ref and
   Expand, opt_all in Cidr; the lemmas apply to those definitions by conversion. *)
Fixpoint oseq {A} (l : list (option A)) : option (list A) :=
  match l with
  | [] => Some []
  | Some x :: r => match oseq r with Some r' => Some (x :: r') | None => None end
  | None :: _ => None
  end.

Lemma oseq_Some {A} (l : list (option A)) r : oseq l = Some r -> l = map Some r.
Proof.
  revert r. induction l as [|[x|] l IH]; cbn [oseq]; intros r H; [injection H as <-; reflexivity | | discriminate].
  destruct (oseq l) as [r'|]; [|discriminate]. injection H as <-. cbn [map]. rewrite (IH r' eq_refl). reflexivity.
Qed.

Lemma oseq_None {A} (l : list (option A)) : oseq l = None <-> In None l.
Proof.
  induction l as [|[x|] l IH]; cbn [oseq In].
  - split; [discriminate | contradiction].
  - rewrite <- IH. destruct (oseq l); (split; [intros H | intros [H|H]]); (discriminate H || auto).
  - split; [left | ]; reflexivity.
Qed.

Lemma oseq_map_Some {A B} (f : A -> option B) (g : A -> B) l :
  (forall x, In x l -> f x = Some (g x)) -> oseq (map f l) = Some (map g l).
Proof.
  induction l as [|x l IH]; intros H; [reflexivity|]. cbn [map oseq].
  rewrite (H x (or_introl eq_refl)), (IH (fun y Hy => H y (or_intror Hy))). reflexivity.
Qed.

Lemma oseq_map_None {A B} (f : A -> option B) l x : In x l -> f x = None -> oseq (map f l) = None.
Proof. intros Hi Hx. apply oseq_None. rewrite <- Hx. apply in_map, Hi. Qed.

(* The association list with string keys. Determinism, History, PipeCond, Corr and Placeholder define it
   with this body (lookup, assoc), polymorphic in the value type, and the lemmas apply to each of them by
   conversion; a copy over a fixed value type is a fix over fewer arguments and is not convertible. *)
Fixpoint alookup {V} (k : str) (m : list (str * V)) : option V :=
  match m with
  | [] => None
  | (k', v) :: r => if str_eqb k k' then Some v else alookup k r
  end.

Lemma alookup_None {V} k (m : list (str * V)) : ~ In k (map fst m) -> alookup k m = None.
Proof.
  induction m as [|[k' v] m IH]; simpl; intros H; [reflexivity|].
  destruct (str_eqb_spec k k') as [->|_]; [elim H; now left | apply IH; tauto].
Qed.

Lemma alookup_In {V} k (v : V) m : alookup k m = Some v -> In (k, v) m.
Proof.
  induction m as [|[k' v'] m IH]; simpl; [discriminate|].
  destruct (str_eqb_spec k k') as [->|_]; [intros [= ->]; now left | auto].
Qed.

Lemma In_alookup {V} k (v : V) (m : list (str * V)) :
  NoDup (map fst m) -> In (k, v) m -> alookup k m = Some v.
Proof.
  induction m as [|[k' v'] m IH]; simpl; intros Hnd Hin; [contradiction|].
  apply NoDup_cons_iff in Hnd as [Hn Hnd]. destruct Hin as [[= -> ->]|Hin]; [now rewrite str_eqb_refl|].
  destruct (str_eqb_spec k k') as [->|_]; [|auto]. elim Hn. apply (in_map fst _ _ Hin).
Qed.

Lemma alookup_app {V} k (a b : list (str * V)) :
  alookup k (a ++ b) = match alookup k a with Some v => Some v | None => alookup k b end.
Proof.
  induction a as [|[k' v] a IH]; simpl; [reflexivity|].
  destruct (str_eqb k k'); [reflexivity | exact IH].
Qed.

(* Python's insertion-ordered set and dict.  add_new appends an element unless it is there already: how a set
   grows, and the keys of a dict.  aupd d f k t puts f of the old value under k, a new key going to the end with
   f d, so that t[k] = v is aupd v (fun _ => v) k t and t[k].append(v) on a defaultdict(list) is
   aupd [] (fun vs => vs ++ [v]) k t; aget d is the reading with default d.  The models write these updates
   over their own types and argument orders, and each equals its aupd by an induction of two lines. *)
Section AddNew.
  Context {A : Type} (eqb : A -> A -> bool).
  Hypothesis eqb_eq : forall a b, eqb a b = true <-> a = b.

  Definition add_new (l : list A) (a : A) : list A := if existsb (eqb a) l then l else l ++ [a].

  Lemma add_new_In x l y : In x (add_new l y) <-> In x l \/ y = x.
  Proof.
    unfold add_new. destruct (existsb (eqb y) l) eqn:M.
    - apply (existsb_eqb_In eqb y l eqb_eq) in M. split; [auto | intros [H| <-]; assumption].
    - rewrite in_app_iff. apply or_iff_compat_l. split; [intros [H|[]]; exact H | intros H; left; exact H].
  Qed.

  Lemma add_new_NoDup l y : NoDup l -> NoDup (add_new l y).
  Proof.
    intros H. unfold add_new. destruct (existsb (eqb y) l) eqn:M; [exact H|].
    apply (Permutation_NoDup (Permutation_cons_append l y)). constructor; [|exact H].
    rewrite <- (existsb_eqb_In eqb y l eqb_eq), M. discriminate.
  Qed.

  Lemma adds_In x ys : forall l, In x (fold_left add_new ys l) <-> In x l \/ In x ys.
  Proof.
    induction ys as [|y ys IH]; intros l; simpl; [split; [auto | intros [H|[]]; exact H]|].
    rewrite IH, add_new_In. apply or_assoc.
  Qed.

  Lemma adds_NoDup ys : forall l, NoDup l -> NoDup (fold_left add_new ys l).
  Proof. induction ys as [|y ys IH]; intros l H; simpl; [exact H | apply IH, add_new_NoDup, H]. Qed.

  Lemma adds_perm ys ys' :
    Permutation ys ys' -> Permutation (fold_left add_new ys []) (fold_left add_new ys' []).
  Proof.
    intros P. apply NoDup_Permutation; try (apply adds_NoDup; constructor).
    intros x. rewrite !adds_In. apply or_iff_compat_l, (Permutation_in' eq_refl P).
  Qed.
End AddNew.

Section Assoc.
  Context {V : Type} (d : V).

  Definition aget (k : str) (t : list (str * V)) : V := match alookup k t with Some v => v | None => d end.

  Fixpoint aupd (f : V -> V) (k : str) (t : list (str * V)) : list (str * V) :=
    match t with
    | [] => [(k, f d)]
    | (k', v) :: t' => if str_eqb k k' then (k', f v) :: t' else (k', v) :: aupd f k t'
    end.

  Lemma alookup_aupd f k x t : alookup x (aupd f k t) = if str_eqb x k then Some (f (aget x t)) else alookup x t.
  Proof.
    unfold aget. induction t as [|[k' v] t IH]; simpl; [reflexivity|].
    destruct (str_eqb k k') eqn:Ek; simpl.
    - apply str_eqb_eq in Ek. subst k'. destruct (str_eqb x k); reflexivity.
    - destruct (str_eqb x k') eqn:Ex; [|exact IH].
      apply str_eqb_eq in Ex. subst k'. rewrite (str_eqb_sym x k), Ek. reflexivity.
  Qed.

  Lemma aget_aupd f k x t : aget x (aupd f k t) = if str_eqb k x then f (aget x t) else aget x t.
  Proof. unfold aget at 1 3. rewrite alookup_aupd, (str_eqb_sym x k). destruct (str_eqb k x); reflexivity. Qed.

  Lemma keys_aupd f k t : map fst (aupd f k t) = add_new str_eqb (map fst t) k.
  Proof.
    unfold add_new. induction t as [|[k' v] t IH]; simpl; [reflexivity|].
    destruct (str_eqb k k'); simpl; [reflexivity|].
    rewrite IH. destruct (existsb (str_eqb k) (map fst t)); reflexivity.
  Qed.

  Lemma aget_notin x t : ~ In x (map fst t) -> aget x t = d.
  Proof. intros H. unfold aget. rewrite (alookup_None x t H). reflexivity. Qed.

  Lemma by_keys t : NoDup (map fst t) -> t = map (fun x => (x, aget x t)) (map fst t).
  Proof.
    unfold aget. induction t as [|[k v] t IH]; simpl; [reflexivity|]. intros [Hk Hn]%NoDup_cons_iff.
    rewrite str_eqb_refl. f_equal. rewrite (IH Hn) at 1. apply map_ext_in. intros x Hx.
    destruct (str_eqb x k) eqn:E; [|reflexivity]. apply str_eqb_eq in E. subst. contradiction.
  Qed.
End Assoc.

Lemma alookup_filter {V} (p : str -> bool) k (m : list (str * V)) :
  alookup k (filter (fun kv => p (fst kv)) m) = if p k then alookup k m else None.
Proof.
  induction m as [|[k' v] m IH]; simpl; [destruct (p k); reflexivity|].
  destruct (p k') eqn:E; simpl; rewrite IH; destruct (str_eqb_spec k k') as [->|_]; rewrite ?E; reflexivity.
Qed.

(* Grouping through a dict of lists: a table filled from the empty one by appending each value under its key
   holds, for the keys in the order of their first occurrence, the values that came under each. *)
Section Group.
  Context {V : Type} (step : list (str * list V) -> str * V -> list (str * list V)).
  Hypothesis step_aupd : forall t p, step t p = aupd [] (fun vs => vs ++ [snd p]) (fst p) t.

  Definition avals (x : str) (pairs : list (str * V)) : list V :=
    map snd (filter (fun p => str_eqb (fst p) x) pairs).

  Lemma group_get x pairs : forall t, aget [] x (fold_left step pairs t) = aget [] x t ++ avals x pairs.
  Proof.
    induction pairs as [|[k v] pairs IH]; intros t; simpl; [symmetry; apply app_nil_r|].
    rewrite IH, step_aupd, aget_aupd. unfold avals. simpl.
    destruct (str_eqb k x); simpl; [rewrite <- app_assoc|]; reflexivity.
  Qed.

  Lemma group_keys pairs : forall t,
    map fst (fold_left step pairs t) = fold_left (add_new str_eqb) (map fst pairs) (map fst t).
  Proof.
    induction pairs as [|p pairs IH]; intros t; simpl; [reflexivity|]. rewrite IH, step_aupd, keys_aupd. reflexivity.
  Qed.

  Theorem group_closed pairs :
    fold_left step pairs [] = map (fun x => (x, avals x pairs)) (fold_left (add_new str_eqb) (map fst pairs) []).
  Proof.
    rewrite <- (group_keys pairs [] : _ = fold_left _ _ []). etransitivity.
    - apply (by_keys []). rewrite group_keys. apply (adds_NoDup _ str_eqb_eq). constructor.
    - apply map_ext. intros x. rewrite group_get. reflexivity.
  Qed.
End Group.

Lemma prefixb_same_len a : forall b k,
  length a = length b -> prefixb a k = true -> prefixb b k = true -> a = b.
Proof.
  induction a as [|x a IH]; intros [|y b] [|z k] Hl; simpl in *; try discriminate; [reflexivity..|].
  intros [->%N.eqb_eq Ha]%andb_prop [->%N.eqb_eq Hb]%andb_prop. f_equal. apply (IH b k); auto.
Qed.

(* the recursion of a reader for which a backslash takes the next character along *)
Lemma esc_ind (P : str -> Prop) :
  P [] -> P [c_bs] -> (forall e x, P x -> P (c_bs :: e :: x)) ->
  (forall c x, N.eqb c c_bs = false -> P x -> P (c :: x)) -> forall x, P x.
Proof.
  intros H0 H1 H2 H3. assert (H : forall x, P x /\ forall c, P (c :: x)); [|intros x; apply H].
  induction x as [|d x [IH1 IH2]]; split; auto; intros c;
    (destruct (N.eqb c c_bs) eqn:E; [apply N.eqb_eq in E; subst c|]); auto.
Qed.

Lemma fold_rel {A B X} (R : A -> B -> Prop) (f : A -> X -> A) (g : B -> X -> B) l :
  (forall a b x, In x l -> R a b -> R (f a x) (g b x)) ->
  forall a b, R a b -> R (fold_left f l a) (fold_left g l b).
Proof.
  induction l as [|x l IH]; intros H a b Hab; [exact Hab|].
  apply IH; [intros a' b' y Hy; apply H; right; exact Hy | apply H; [left; reflexivity | exact Hab]].
Qed.

Lemma rev_nonnil {X} (l : list X) : l <> [] -> rev l <> [].
Proof. intros H E. apply H. rewrite <- (rev_involutive l), E. reflexivity. Qed.

Lemma forallb_map_id {X} (f : X -> bool) l : forallb (fun b => b) (map f l) = forallb f l.
Proof. induction l; simpl; congruence. Qed.

Lemma existsb_map_id {X} (f : X -> bool) l : existsb (fun b => b) (map f l) = existsb f l.
Proof. induction l; simpl; congruence. Qed.

Lemma flat_map_map {A B C} (f : B -> list C) (g : A -> B) l :
  flat_map f (map g l) = flat_map (fun x => f (g x)) l.
Proof. rewrite !flat_map_concat_map, map_map. reflexivity. Qed.

Lemma map_flat_map {A B C} (f : B -> C) (g : A -> list B) l :
  map f (flat_map g l) = flat_map (fun x => map f (g x)) l.
Proof. induction l; simpl; [reflexivity | rewrite map_app, IHl; reflexivity]. Qed.

Lemma flat_map_flat_map {A B C} (f : B -> list C) (g : A -> list B) l :
  flat_map f (flat_map g l) = flat_map (fun x => flat_map f (g x)) l.
Proof. induction l; simpl; [reflexivity | rewrite flat_map_app, IHl; reflexivity]. Qed.

Lemma filter_nil {A} (f : A -> bool) l : (forall x, In x l -> f x = false) -> filter f l = [].
Proof. induction l as [|x l IH]; simpl; intros H; [reflexivity|]. rewrite (H x), IH by auto. reflexivity. Qed.

Lemma filter_map_comm {A B} (f : B -> bool) (g : A -> B) l :
  filter f (map g l) = map g (filter (fun x => f (g x)) l).
Proof. induction l as [|x l IH]; simpl; [reflexivity|]. destruct (f (g x)); simpl; rewrite IH; reflexivity. Qed.

Lemma firstn_app_length {A} (l1 l2 : list A) : firstn (length l1) (l1 ++ l2) = l1.
Proof. rewrite firstn_app, Nat.sub_diag, firstn_all. apply app_nil_r. Qed.

Lemma filter_perm {A} (f : A -> bool) l l' : Permutation l l' -> Permutation (filter f l) (filter f l').
Proof.
  induction 1; simpl.
  - constructor.
  - destruct (f x); [apply perm_skip|]; assumption.
  - destruct (f x), (f y); try apply perm_swap; reflexivity.
  - eapply Permutation_trans; eassumption.
Qed.

Lemma Forall2_compose {A B C} (R1 : A -> B -> Prop) (R2 : B -> C -> Prop) (R3 : A -> C -> Prop) l1 l2 l3 :
  (forall a b c, R1 a b -> R2 b c -> R3 a c) -> Forall2 R1 l1 l2 -> Forall2 R2 l2 l3 -> Forall2 R3 l1 l3.
Proof.
  intros Hc H12. revert l3. induction H12 as [|a b r1 r2 Hab _ IH]; intros l3 H23; inversion H23; subst; constructor; eauto.
Qed.

Lemma NoDup_app_intro {A} (a b : list A) :
  NoDup a -> NoDup b -> (forall x, In x a -> In x b -> False) -> NoDup (a ++ b).
Proof.
  induction 1 as [|x a Hx Ha IH]; simpl; intros Hb Hd; [exact Hb|]. constructor.
  - rewrite in_app_iff. intros [H|H]; [exact (Hx H) | exact (Hd x (or_introl eq_refl) H)].
  - apply IH; [exact Hb|]. intros y Hy. apply Hd. right. exact Hy.
Qed.

Definition Reads {A} (rd : nat -> str -> option (list A)) (s : str) (l : list A) : Prop :=
  forall fuel, (length s < fuel)%nat -> rd fuel s = Some l.

Lemma reads_token {A} (rd : nat -> str -> option (list A)) i t r l : t <> [] ->
  (forall f, rd (S f) (t ++ r) = option_map (cons i) (rd f r)) ->
  Reads rd r l -> Reads rd (t ++ r) (i :: l).
Proof.
  intros Hne Hst HD [|f] Hf; [inversion Hf|]. rewrite Hst, (HD f); [reflexivity|].
  destruct t; [contradiction|]. rewrite app_length in Hf. apply Nat.succ_lt_mono in Hf.
  eapply Nat.le_lt_trans; [apply Nat.le_add_l | exact Hf].
Qed.

(* A text that holds no separator, followed by the separator or by the end, is a prefix code: two such texts that
   start the same string end at the same place. *)
Definition sep_or_end {A} (c : A) (x : list A) : Prop := x = [] \/ exists x', x = c :: x'.

Lemma sep_or_end_cons {A} (c : A) x : sep_or_end c (c :: x).
Proof. right. eauto. Qed.
Lemma sep_or_end_app {A} (c : A) x y : sep_or_end c x -> sep_or_end c y -> sep_or_end c (x ++ y).
Proof. intros [->|[x' ->]] Hy; [exact Hy | apply sep_or_end_cons]. Qed.

Lemma sep_split {A} (c : A) u v X Y :
  ~ In c u -> ~ In c v -> sep_or_end c X -> sep_or_end c Y -> u ++ X = v ++ Y -> u = v /\ X = Y.
Proof.
  revert v. induction u as [|x u IH]; intros [|y v] Hu Hv HX HY E; simpl in *.
  - auto.
  - destruct HX as [->|[X' ->]]; [discriminate|]. injection E as <- _. destruct Hv. auto.
  - destruct HY as [->|[Y' ->]]; [discriminate|]. injection E as -> _. destruct Hu. auto.
  - injection E as -> E. destruct (IH v) as [-> ->]; auto.
Qed.

(* Python's sep.join(l). Cidr, Corr, Determinism, History, Placeholder, RefOrder and AbsPipeline define it with this
   body (join, join_str), and a lemma applies to each of them by conversion. *)
Fixpoint join_with (sep : str) (l : list str) : str :=
  match l with [] => [] | [x] => x | x :: r => x ++ sep ++ join_with sep r end.

Lemma join_all (Q : str -> bool) sep l : Q [] = true -> (forall a b, Q (a ++ b) = Q a && Q b) ->
  Q sep = true -> forallb Q l = true -> Q (join_with sep l) = true.
Proof.
  intros H0 Happ Hs. induction l as [|x l IH]; intros H; [exact H0|].
  cbn [forallb] in H. apply andb_true_iff in H as [Hx Hl].
  destruct l as [|y l]; [exact Hx|].
  change (join_with sep (x :: y :: l)) with (x ++ sep ++ join_with sep (y :: l)).
  rewrite !Happ, Hx, Hs, (IH Hl). reflexivity.
Qed.
