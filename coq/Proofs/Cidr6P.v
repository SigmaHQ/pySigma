(* Proofs for C18, second part: for IPv6 what holds whatever the groups are (the pattern of a single address
   is its text, the pattern of one subnet covers within the whole expansion) and the refutation of coverage in
   general; totality of expand, and the meaning of the rendered query. *)
From Coq Require Import NArith List Bool Lia ZifyBool.
From PS Require Import Base.Chars Base.Outcome Model.SString Model.Cidr Spec.Net Proofs.CharsP Proofs.CidrP.
Import ListNotations.
Open Scope N_scope.

Lemma pat_prefix_star p t : forallb plainc p = true ->
  (pat_matches (p ++ [c_star]) t = true <-> prefixb p t = true).
Proof.
  intros Hp. rewrite (pat_plain_app p _ t Hp), prefixb_spec. split.
  - intros [r [E _]]. exists r. exact E.
  - intros [r E]. exists r. split; [exact E | apply pat_star].
Qed.

Lemma first_diff_refl s i : first_diff s s i = NoDiff.
Proof. revert i. induction s as [|c s IH]; intros i; cbn [first_diff]; [reflexivity|]. rewrite N.eqb_refl. apply IH. Qed.

Lemma pat6_host a : pat6 128 None a = Ok (show6 a).
Proof.
  unfold pat6. change (128 - 128) with 0. change (2 ^ 0) with 1.
  replace (a + 1 - 1) with a by lia. rewrite !app_nil_r. rewrite first_diff_refl. reflexivity.
Qed.

Lemma expand6_host a : expand6 a 128 None = Ok [show6 a].
Proof.
  change (expand6 a 128 None) with (oall [pat6 128 None (a + 0)]). rewrite N.add_0_r, pat6_host. reflexivity.
Qed.

Lemma hexdigit_plain n : plainc (hexdigit n) = true.
Proof.
  unfold hexdigit, plainc, is_special, c_star, c_qm, c_bs.
  destruct (n <? 10) eqn:E; lia.
Qed.
Lemma hex4_plain g : forallb plainc (hex4 g) = true.
Proof.
  unfold hex4. destruct (g <? 16); [|destruct (g <? 256); [|destruct (g <? 4096)]];
    cbn [forallb]; rewrite !hexdigit_plain; reflexivity.
Qed.
Lemma hexes_plain sep l : forallb plainc sep = true -> forallb plainc (join sep (map hex4 l)) = true.
Proof.
  intros Hs. apply (join_all _ sep _ eq_refl (forallb_app plainc) Hs), forallb_forall.
  intros s Hi. apply in_map_iff in Hi as [g [<- _]]. apply hex4_plain.
Qed.
Lemma show6g_plain l : forallb plainc (show6g l) = true.
Proof.
  unfold show6g. destruct (best_run l) as [s n]. destruct (Nat.ltb 1 n).
  - rewrite !forallb_app, !hexes_plain; reflexivity.
  - apply hexes_plain. reflexivity.
Qed.
Lemma show6_self a : pat_matches (show6 a) (show6 a) = true.
Proof. apply pat_plain; [apply show6g_plain | reflexivity]. Qed.

Lemma pat6_ok nl sc sub : exists p, pat6 nl sc sub = Ok p.
Proof. unfold pat6. destruct (first_diff _ _ 0); eauto. Qed.
Lemma oall_ok {A} (l : list (outcome A)) : (forall x, In x l -> exists a, x = Ok a) -> exists r, oall l = Ok r.
Proof.
  induction l as [|x l IH]; intros H; [exists []; reflexivity|].
  destruct (H x (or_introl eq_refl)) as [a ->].
  destruct IH as [r Hr]; [intros y Hy; apply H; right; exact Hy|].
  exists (a :: r). cbn [oall obind]. rewrite Hr. reflexivity.
Qed.
Lemma expand_total n : exists pats, expand n = Ok pats.
Proof.
  destruct n as [a len | a len sc]; cbn [expand]; [eauto|].
  unfold expand6. apply oall_ok. intros x Hx. apply in_map_iff in Hx. destruct Hx as [sub [<- _]]. apply pat6_ok.
Qed.

Lemma oall_in {A} (l : list (outcome A)) r p : oall l = Ok r -> In (Ok p) l -> In p r.
Proof.
  revert r. induction l as [|y l IH]; intros r E Hin; [contradiction|].
  cbn [oall] in E. destruct y as [a|c|c]; cbn [obind] in E; try discriminate.
  destruct (oall l) as [r'|c|c]; cbn [obind] in E; try discriminate.
  injection E as <-. destruct Hin as [Hy|Hin].
  - injection Hy as ->. left. reflexivity.
  - right. apply (IH r' eq_refl Hin).
Qed.

Lemma expand6_covers a len sc sub t :
  (len = 128 -> sc = None) -> In sub (subnets 128 a len (pad 4 len)) ->
  (exists p, pat6 (len + pad 4 len) None sub = Ok p /\ pat_matches p t = true) ->
  exists pats, expand6 a len sc = Ok pats /\ covered pats t = true.
Proof.
  intros Hsc Hin [p [Ep Hm]].
  destruct (expand_total (Net6 a len sc)) as [pats Epats]. exists pats. split; [exact Epats|].
  cbn [expand] in Epats. unfold expand6 in Epats.
  replace (if len =? 128 then sc else None) with (@None str) in Epats
    by (destruct (N.eqb_spec len 128) as [E|_]; [rewrite (Hsc E)|]; reflexivity).
  unfold covered. apply existsb_exists. exists p. split; [|exact Hm].
  apply (oall_in _ _ _ Epats). rewrite <- Ep. apply in_map. exact Hin.
Qed.

Definition A6 (groups : list N) : N := be_val 65536 groups.

(* 2001:db8::/64 expands to the single pattern "2001:db8::", which does not match 2001:db8::1 *)
Lemma v6_cover_refuted :
  exists a len x pats,
    wf_net 128 a len /\ in_net 128 a len x /\
    expand6 a len None = Ok pats /\ covered pats (show6 x) = false.
Proof.
  exists (A6 [8193; 3512; 0; 0; 0; 0; 0; 0]), 64, (A6 [8193; 3512; 0; 0; 0; 0; 0; 1]).
  eexists. split; [|split; [|split]].
  - unfold wf_net. repeat split; try (vm_compute; congruence).
  - unfold in_net. split; vm_compute; congruence.
  - vm_compute. reflexivity.
  - vm_compute. reflexivity.
Qed.

(* The query a text backend makes of the pattern list, as a structure: a value list where as_in_list allows one,
   else an OR. Model.Cidr.render_expanded prints the same choice as text; no lemma relates the two, the
   correspondence check compares the texts (render_rq of Run/C18run.v prints a structure). *)
Definition render_struct (or_as_in allow_wild : bool) (pats : list str) : rquery :=
  if as_in_list or_as_in allow_wild pats then RIn pats else ROr pats.

Definition pat_chars (p : str) : bool := forallb (fun c => plainc c || (c =? c_star)) p.

Lemma literal_pattern p t : pat_chars p = true -> has_special p = false -> pat_matches p t = str_eqb p t.
Proof.
  intros Hc Hs. assert (Hp : forallb plainc p = true).
  { unfold pat_chars in Hc. rewrite forallb_forall in *. intros c Hin. specialize (Hc c Hin).
    unfold has_special in Hs. destruct (plainc c) eqn:E; [reflexivity|]. cbn [orb] in Hc.
    assert (X : existsb (fun c => (c =? c_star) || (c =? c_qm)) p = true).
    { apply existsb_exists. exists c. split; [exact Hin|]. rewrite Hc. reflexivity. }
    congruence. }
  apply Bool.eq_iff_eq_true. rewrite (pat_plain p t Hp), str_eqb_eq. split; congruence.
Qed.

Lemma render_semantics or_as_in allow_wild pats t :
  forallb pat_chars pats = true ->
  rquery_matches allow_wild (render_struct or_as_in allow_wild pats) t = covered pats t.
Proof.
  intros Hc. unfold render_struct, as_in_list, covered.
  destruct or_as_in; cbn [andb]; [|reflexivity].
  destruct allow_wild; cbn [orb]; [reflexivity|].
  destruct (existsb has_special pats) eqn:E; cbn [negb]; [reflexivity|].
  cbn [rquery_matches]. unfold value_matches.
  induction pats as [|p pats IH]; [reflexivity|]. cbn [existsb forallb] in *.
  apply andb_true_iff in Hc. destruct Hc as [Hp Hc]. apply orb_false_iff in E. destruct E as [E1 E2].
  rewrite (literal_pattern p t Hp E1), IH by assumption. reflexivity.
Qed.
