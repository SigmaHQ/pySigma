(* C18, IPv4: the patterns of expand4 match exactly the addresses of the network, each address by one pattern.
   A pattern is read back into the integer range it denotes (Spec.Net.pattern_range4); the reader is proved correct
   against the wildcard semantics, on the model's own patterns it returns the blocks of the subnets, and ranges that
   tile the network (Spec.Net.tiles) contain each of its addresses once and no other. The same counting, after
   sorting, is the soundness of the range oracle of the correspondence check (Spec.Net.exact_cover4). *)
From Coq Require Import NArith Arith List FinFun Bool Lia ZifyBool.
From PS Require Import Base.Chars Model.SString Spec.Items Model.Cidr Spec.Net Proofs.CharsP Proofs.SStringP.
Import ListNotations.
Open Scope N_scope.
(* here and in every file that imports this one, simpl and cbn leave products, sums and powers of N alone:
   cbn [p256] in prange4_ok would otherwise go on into the products it exposes *)
Arguments N.mul : simpl never.
Arguments N.add : simpl never.
Arguments N.pow : simpl never.

(* divmod a b as q r: name quotient and remainder of a by the constant b, keeping only their
   defining equation and the bound of r, so that lia can reason about them *)
Tactic Notation "divmod" constr(a) constr(b) "as" ident(q) ident(r) :=
  pose proof (N.div_mod a b ltac:(discriminate)); pose proof (N.mod_lt a b ltac:(discriminate));
  set (q := a / b) in *; set (r := a mod b) in *; clearbody q r.

(* a character that stands for itself in a Sigma string: no wildcard, no backslash. SStringP.plain_char is the
   same predicate with the negation outside (plainc_plain); pat_chars of Cidr6P, the premise of
   C18_render_semantics, is written with this one. *)
Definition plainc (c : char) : bool := negb (is_special c) && negb (N.eqb c c_bs).

Lemma plainc_plain x : forallb plainc x = true -> forallb plain_char x = true.
Proof.
  rewrite !forallb_forall. intros H c Hc. unfold plain_char. rewrite negb_orb. exact (H c Hc).
Qed.

Lemma wild_lit_app x q t :
  wild_match (map Lit x ++ q) t = true <-> exists t', t = x ++ t' /\ wild_match q t' = true.
Proof.
  revert t. induction x as [|a x IH]; intros t; cbn [map app].
  - split; [intros H; exists t; auto | intros [t' [-> H]]; exact H].
  - cbn [wild_match]. destruct t as [|b t].
    + split; [discriminate | intros [t' [H _]]; discriminate].
    + rewrite andb_true_iff, N.eqb_eq, IH. split.
      * intros [-> [t' [-> H]]]. exists t'. auto.
      * intros [t' [E H]]. inversion E; subst. split; [reflexivity | exists t'; auto].
Qed.

Lemma wild_nil t : wild_match [] t = true <-> t = [].
Proof. destruct t; cbn; split; congruence. Qed.

Lemma wild_lits x t : wild_match (map Lit x) t = true <-> t = x.
Proof.
  rewrite <- (app_nil_r (map Lit x)), wild_lit_app. split.
  - intros [t' [-> H]]. apply wild_nil in H. subst. apply app_nil_r.
  - intros ->. exists []. split; [symmetry; apply app_nil_r | reflexivity].
Qed.

Lemma pat_star t : pat_matches [c_star] t = true.
Proof. apply wild_star. Qed.

Lemma pat_plain_app x q t : forallb plainc x = true ->
  (pat_matches (x ++ q) t = true <-> exists t', t = x ++ t' /\ pat_matches q t' = true).
Proof.
  intros H. unfold pat_matches. rewrite iparse_plain_app by (apply plainc_plain; exact H). apply wild_lit_app.
Qed.

Lemma pat_plain p t : forallb plainc p = true -> (pat_matches p t = true <-> t = p).
Proof.
  intros H. unfold pat_matches. rewrite iparse_plain by (apply plainc_plain; exact H). apply wild_lits.
Qed.

Lemma In_nseq n o : In o (nseq n) <-> o < n.
Proof.
  unfold nseq. rewrite in_map_iff. split.
  - intros [k [<- Hk]]. apply in_seq in Hk. lia.
  - intros H. exists (N.to_nat o). split; [apply N2Nat.id | apply in_seq; lia].
Qed.

Lemma dec3_digits n : n < 1000 -> forallb is_digit (dec3 n) = true.
Proof.
  intros H. unfold dec3, is_digit, digit.
  destruct (N.ltb_spec n 10); [|destruct (N.ltb_spec n 100)]; cbn [forallb].
  - lia.
  - divmod n 10 as q r. lia.
  - divmod n 100 as h r'. divmod (n / 10) 10 as h' t. divmod n 10 as q r. lia.
Qed.

Lemma dec_val_dec3 n : n < 1000 -> dec_val (dec3 n) = n.
Proof.
  intros H. unfold dec3, dec_val, digit.
  destruct (N.ltb_spec n 10); [|destruct (N.ltb_spec n 100)]; cbn [fold_left].
  - lia.
  - divmod n 10 as q r. lia.
  - replace (n / 100) with (n / 10 / 10) by (apply N.div_div; discriminate).
    divmod (n / 10) 10 as h t. divmod n 10 as q r. lia.
Qed.

Lemma dec3_inj x y : x < 1000 -> y < 1000 -> dec3 x = dec3 y -> x = y.
Proof. intros Hx Hy E. rewrite <- (dec_val_dec3 x Hx), E. exact (dec_val_dec3 y Hy). Qed.

Lemma digit_plain c : is_digit c = true -> plainc c = true.
Proof. unfold is_digit, plainc, is_special, c_star, c_qm, c_bs. lia. Qed.

Lemma dec3_plain o : o < 256 -> forallb plainc (dec3 o) = true.
Proof.
  intros H. pose proof (dec3_digits o ltac:(lia)) as D. rewrite forallb_forall in *.
  intros c Hc. exact (digit_plain c (D c Hc)).
Qed.

Lemma dec3_no_dot o : o < 256 -> ~ In c_dot (dec3 o).
Proof.
  intros H Hin. pose proof (dec3_digits o ltac:(lia)) as D. rewrite forallb_forall in D.
  discriminate (D _ Hin).
Qed.

Lemma digit_not_star n : (digit n =? c_star) = false.
Proof. apply N.eqb_neq. unfold digit, c_star. lia. Qed.
Lemma dec3_not_star o r : str_eqb (dec3 o ++ r) [c_star] = false.
Proof.
  unfold dec3. destruct (o <? 10); [|destruct (o <? 100)]; cbn [app str_eqb];
    rewrite digit_not_star; reflexivity.
Qed.

Definition dotdec (o : N) : str := dec3 o ++ [c_dot].

Lemma dotdec_inj x y r1 r2 : x < 256 -> y < 256 -> dotdec x ++ r1 = dotdec y ++ r2 -> x = y /\ r1 = r2.
Proof.
  intros Hx Hy E. unfold dotdec in E. rewrite <- !app_assoc in E.
  apply (sep_split c_dot _ _ _ _ (dec3_no_dot x Hx) (dec3_no_dot y Hy)) in E; [|apply sep_or_end_cons ..].
  destruct E as [E [= ->]]. apply dec3_inj in E; [auto | lia | lia].
Qed.

Lemma dotdec_plain o : o < 256 -> forallb plainc (dotdec o) = true.
Proof. intros H. unfold dotdec. rewrite forallb_app, (dec3_plain o H). reflexivity. Qed.

Lemma dotdec_not_star o r : str_eqb (dotdec o ++ r) [c_star] = false.
Proof. unfold dotdec. rewrite <- app_assoc. apply dec3_not_star. Qed.

(* The octet tables of Spec.Net are literals (Eval vm_compute): the table of dec3 is compared with its generating
   expression by evaluation, the table of dotdec is derived from it, so that one table is evaluated and not two. *)
Lemma octet_table_eq : octet_table = map (fun o => (o, dec3 o)) (nseq 256).
Proof. vm_compute. reflexivity. Qed.
Lemma octet_dot_table_eq : octet_dot_table = map (fun o => (o, dotdec o)) (nseq 256).
Proof.
  change octet_dot_table with (map (fun ot => (fst ot, snd ot ++ [c_dot])) octet_table).
  rewrite octet_table_eq, map_map. reflexivity.
Qed.

Section Table.
Variables (f : N -> str) (p : str -> bool) (n : N).
Let table := map (fun o => (o, f o)) (nseq n).

Lemma find_table_some o t :
  find (fun ot => p (snd ot)) table = Some (o, t) -> o < n /\ t = f o /\ p (f o) = true.
Proof.
  intros F. apply find_some in F. destruct F as [Hin Hp].
  apply in_map_iff in Hin. destruct Hin as [k [[= <- <-] Hk]]. apply In_nseq in Hk. auto.
Qed.

Lemma find_table_unique o : o < n -> p (f o) = true ->
  (forall o', o' < n -> p (f o') = true -> o' = o) ->
  find (fun ot => p (snd ot)) table = Some (o, f o).
Proof.
  intros Ho Hp U. destruct (find _ table) as [[o' t]|] eqn:F.
  - apply find_table_some in F. destruct F as [Ho' [-> Hp']]. rewrite (U o' Ho' Hp'). reflexivity.
  - pose proof (find_none _ _ F (o, f o)) as C. cbn [snd] in C. rewrite Hp in C.
    discriminate C. apply in_map_iff. exists o. split; [reflexivity | apply In_nseq; exact Ho].
Qed.
End Table.

Lemma skipn_length_app {A} (p r : list A) : skipn (length p) (p ++ r) = r.
Proof. rewrite skipn_app, skipn_all, Nat.sub_diag. reflexivity. Qed.

Lemma read_octet_dot_spec s o r :
  read_octet_dot s = Some (o, r) -> o < 256 /\ s = dotdec o ++ r.
Proof.
  unfold read_octet_dot. rewrite octet_dot_table_eq.
  destruct (find _ _) as [[o' t]|] eqn:F; [|discriminate]. intros [= <- <-].
  apply (find_table_some dotdec (fun t => prefixb t s)) in F. destruct F as [Ho [-> Hp]].
  apply prefixb_spec in Hp. destruct Hp as [r' ->]. rewrite skipn_length_app. auto.
Qed.

Lemma read_octet_dot_dotdec o r : o < 256 -> read_octet_dot (dotdec o ++ r) = Some (o, r).
Proof.
  intros Ho. unfold read_octet_dot. rewrite octet_dot_table_eq.
  rewrite (find_table_unique dotdec (fun t => prefixb t (dotdec o ++ r)) 256 o Ho (prefixb_app _ _)).
  - rewrite skipn_length_app. reflexivity.
  - intros o' Ho' Hp. apply prefixb_spec in Hp. destruct Hp as [r' E].
    symmetry. exact (proj1 (dotdec_inj _ _ _ _ Ho Ho' E)).
Qed.

Lemma find_octet_spec s o t :
  find (fun ot => str_eqb (snd ot) s) octet_table = Some (o, t) -> o < 256 /\ s = dec3 o.
Proof.
  rewrite octet_table_eq. intros F.
  apply (find_table_some dec3 (fun t => str_eqb t s)) in F. destruct F as [Ho [_ Hp]].
  apply str_eqb_eq in Hp. auto.
Qed.

Lemma find_octet_dec3 o : o < 256 ->
  find (fun ot => str_eqb (snd ot) (dec3 o)) octet_table = Some (o, dec3 o).
Proof.
  intros Ho. rewrite octet_table_eq.
  apply (find_table_unique dec3 (fun t => str_eqb t (dec3 o)) 256 o Ho (str_eqb_refl _)).
  intros o' Ho' Hp. apply str_eqb_eq in Hp. apply dec3_inj; [lia | lia | exact Hp].
Qed.

Lemma join_map_app {A} (f : A -> str) sep F R : R <> [] ->
  join sep (map f (F ++ R)) = flat_map (fun x => f x ++ sep) F ++ join sep (map f R).
Proof.
  intros HR. induction F as [|x F IH]; [reflexivity|].
  cbn [app map flat_map]. rewrite <- !app_assoc, <- IH.
  destruct (F ++ R) eqn:E; [|reflexivity].
  apply app_eq_nil in E. tauto.
Qed.

Lemma join_map_sep {A} (f : A -> str) sep F : F <> [] ->
  join sep (map f F) ++ sep = flat_map (fun x => f x ++ sep) F.
Proof.
  induction F as [|x [|y F] IH]; intros H; [congruence | cbn; rewrite app_nil_r; reflexivity |].
  change (join sep (map f (x :: y :: F))) with (f x ++ sep ++ join sep (map f (y :: F))).
  cbn [flat_map] in *. rewrite <- IH by discriminate. rewrite <- !app_assoc. reflexivity.
Qed.

Fixpoint val (os : list N) : N :=
  match os with [] => 0 | o :: r => o * p256 (length r) + val r end.
Definition show_os (os : list N) : str := join [c_dot] (map dec3 os).
Definition octets_ok (os : list N) : Prop := Forall (fun o => o < 256) os.

Lemma p256_pos w : 0 < p256 w.
Proof. induction w; cbn [p256]; lia. Qed.

Lemma val_bound os : octets_ok os -> val os < p256 (length os).
Proof.
  induction 1 as [|o r Ho _ IH]; cbn [val length p256]; [lia|].
  pose proof (p256_pos (length r)). nia.
Qed.

Lemma show_os_cons o o' r : show_os (o :: o' :: r) = dotdec o ++ show_os (o' :: r).
Proof. unfold show_os, dotdec. cbn [map join]. rewrite <- app_assoc. reflexivity. Qed.

Lemma block_unique P x y v : v < P -> x * P <= y * P + v -> y * P + v < (x + 1) * P -> x = y.
Proof. intros. nia. Qed.

Lemma prange4_ok : forall w acc s lo hi,
  prange4 w acc s = Some (lo, hi) ->
  (acc * p256 w <= lo /\ hi <= (acc + 1) * p256 w) /\
  forall os, length os = w -> octets_ok os ->
    (pat_matches s (show_os os) = true <-> lo <= acc * p256 w + val os /\ acc * p256 w + val os < hi).
Proof.
  induction w as [|w IH]; intros acc s lo hi H; [discriminate|].
  cbn [prange4] in H. destruct (str_eqb s [c_star]) eqn:Es.
  { apply str_eqb_eq in Es. subst s. injection H as <- <-. split; [split; apply N.le_refl|].
    intros os Hl Hok. pose proof (val_bound os Hok) as B. rewrite Hl in B.
    rewrite pat_star. cbn [p256] in *. split; [intros _; lia | reflexivity]. }
  destruct w as [|w'].
  - destruct (find _ octet_table) as [[o t]|] eqn:F; [|discriminate].
    injection H as <- <-. destruct (find_octet_spec _ _ _ F) as [Ho ->].
    cbn [p256]. split; [lia|].
    intros os Hl Hok. destruct os as [|o' [|? ?]]; try discriminate.
    inversion Hok; subst. cbn [val length p256 show_os map join].
    rewrite (pat_plain _ _ (dec3_plain o Ho)). split.
    + intros E. apply dec3_inj in E; lia.
    + intros [A B]. assert (o' = o) by lia. subst. reflexivity.
  - destruct (read_octet_dot s) as [[o r]|] eqn:R; [|discriminate].
    destruct (read_octet_dot_spec _ _ _ R) as [Ho ->].
    destruct (IH _ _ _ _ H) as [[B1 B2] M]. clear IH H R.
    change (p256 (S (S w'))) with (256 * p256 (S w')). set (P := p256 (S w')) in *.
    pose proof (N.mul_le_mono_r (o + 1) 256 P ltac:(lia)). pose proof (N.le_0_l (o * P)).
    split; [lia|].
    intros [|o' os] Hl Hok; [discriminate|]. injection Hl as Hl. inversion Hok as [|? ? Ho'' Hok']; subst.
    destruct os as [|o'' os'']; [discriminate|]. rewrite show_os_cons, pat_plain_app by (apply dotdec_plain; exact Ho).
    set (os := o'' :: os'') in *. clearbody os. cbn [val]. rewrite Hl. fold P.
    specialize (M _ Hl Hok'). pose proof (val_bound _ Hok') as VB. rewrite Hl in VB. fold P in VB. split.
    + intros [t' [E Hm]]. apply dotdec_inj in E; auto. destruct E as [<- <-].
      apply M in Hm. lia.
    + (* the range lies inside the block selected by acc * 256 + o (B1, B2): an octet list in it starts with o *)
      intros [A B]. assert (acc * 256 + o = acc * 256 + o') by (apply (block_unique P _ _ (val os)); lia).
      assert (o' = o) by lia. subst o'. eexists. split; [reflexivity|]. apply M. lia.
Qed.

Lemma octs4_ok a : octets_ok (octs4 a).
Proof. unfold octs4. repeat constructor; apply N.mod_lt; discriminate. Qed.

Lemma val_octs4 a : a < 2 ^ 32 -> val (octs4 a) = a.
Proof.
  intros H. change (2 ^ 32) with 4294967296 in H. unfold octs4. cbn [val length p256].
  divmod (a / 16777216) 256 as q3 o3. divmod a 16777216 as a3 r3.
  divmod (a / 65536) 256 as q2 o2. divmod a 65536 as a2 r2.
  divmod (a / 256) 256 as q1 o1. divmod a 256 as a1 o0. lia.
Qed.

Theorem pattern_range4_ok p lo hi :
  pattern_range4 p = Some (lo, hi) ->
  forall a, a < 2 ^ 32 -> (pat_matches p (show4 a) = true <-> lo <= a /\ a < hi).
Proof.
  intros H a Ha. destruct (prange4_ok _ _ _ _ _ H) as [_ M].
  specialize (M (octs4 a) eq_refl (octs4_ok a)).
  rewrite (val_octs4 a Ha) in M.
  cbn [N.mul] in M. exact M.
Qed.

Lemma pattern_range4_b p lo hi a : pattern_range4 p = Some (lo, hi) -> a < 2 ^ 32 ->
  pat_matches p (show4 a) = (lo <=? a) && (a <? hi).
Proof.
  intros H Ha. apply Bool.eq_iff_eq_true.
  rewrite (pattern_range4_ok p lo hi H a Ha), andb_true_iff, N.leb_le, N.ltb_lt. reflexivity.
Qed.

Lemma p256_add a b : p256 (a + b) = p256 a * p256 b.
Proof. induction a as [|a IH]; cbn [Nat.add p256]; [lia | rewrite IH; lia]. Qed.

Lemma val_app l r : val (l ++ r) = val l * p256 (length r) + val r.
Proof.
  induction l as [|o l IH]; cbn [app val]; [lia|].
  rewrite IH, app_length, p256_add. lia.
Qed.

Lemma prange4_step o w acc r : o < 256 ->
  prange4 (S (S w)) acc (dotdec o ++ r) = prange4 (S w) (acc * 256 + o) r.
Proof.
  intros Ho. cbn [prange4].
  rewrite dotdec_not_star, read_octet_dot_dotdec by exact Ho. reflexivity.
Qed.

Lemma prange4_dotted pre w acc r : octets_ok pre ->
  prange4 (length pre + S w) acc (flat_map dotdec pre ++ r)
  = prange4 (S w) (acc * p256 (length pre) + val pre) r.
Proof.
  intros Hok. revert acc. induction Hok as [|o pre Ho _ IH]; intros acc.
  - cbn [length flat_map app Nat.add val p256]. f_equal. lia.
  - cbn [length flat_map Nat.add val p256]. rewrite <- app_assoc, Nat.add_succ_r, prange4_step by exact Ho.
    rewrite <- Nat.add_succ_r, IH. f_equal. ring.
Qed.

Lemma pat4_flat (wg : nat) a : (wg < 4)%nat ->
  pat4 (N.of_nat wg) a = flat_map dotdec (firstn wg (octs4 a)) ++ [c_star].
Proof.
  intros H. destruct wg as [|[|[|[|?]]]]; [reflexivity | | | | lia];
    rewrite <- (join_map_sep dec3 [c_dot]), <- app_assoc by (unfold octs4; discriminate); reflexivity.
Qed.

Lemma show4_flat a : show4 a = flat_map dotdec (firstn 3 (octs4 a)) ++ dec3 (a mod 256).
Proof. unfold show4, octs4, dotdec. cbn [firstn map join flat_map]. rewrite <- !app_assoc. reflexivity. Qed.

Lemma pattern_range4_pat4 (wg : nat) sub : (wg <= 4)%nat -> sub < 2 ^ 32 ->
  sub mod p256 (4 - wg) = 0 ->
  pattern_range4 (pat4 (N.of_nat wg) sub) = Some (sub, sub + p256 (4 - wg)).
Proof.
  intros Hw Hs Hm. unfold pattern_range4.
  pose proof (val_octs4 sub Hs) as V. pose proof (octs4_ok sub) as Hok.
  destruct (Nat.eq_dec wg 4) as [->|Hne].
  - change (pat4 (N.of_nat 4) sub) with (show4 sub). rewrite show4_flat.
    change (octs4 sub) with (firstn 3 (octs4 sub) ++ [sub mod 256]) in V, Hok.
    apply Forall_app in Hok. destruct Hok as [Hpre _].
    rewrite (prange4_dotted (firstn 3 (octs4 sub)) 0 0 _ Hpre). cbn [prange4].
    rewrite <- (app_nil_r (dec3 _)) at 1. rewrite dec3_not_star, find_octet_dec3 by (apply N.mod_lt; discriminate).
    rewrite val_app in V. cbn [length val p256 Nat.sub] in *. f_equal. f_equal; lia.
  - (* the wg fixed octets are sub / 256^(4-wg), the others are zero *)
    rewrite pat4_flat by lia.
    rewrite <- (firstn_skipn wg (octs4 sub)) in V, Hok. apply Forall_app in Hok. destruct Hok as [Hpre Hpost].
    pose proof (val_bound _ Hpost) as B. rewrite val_app in V.
    rewrite skipn_length in V, B. change (length (octs4 sub)) with 4%nat in V, B.
    rewrite <- V, N.add_comm, N.mod_add, N.mod_small in Hm by (pose proof (p256_pos (4 - wg)); lia).
    replace 4%nat with (length (firstn wg (octs4 sub)) + S (3 - wg))%nat at 1
      by (rewrite firstn_length; change (length (octs4 sub)) with 4%nat; lia).
    rewrite (prange4_dotted _ _ 0 _ Hpre). cbn [prange4 str_eqb]. rewrite N.eqb_refl. cbn [andb].
    replace (S (3 - wg)) with (4 - wg)%nat by lia. f_equal. f_equal; lia.
Qed.

Lemma pow2_nz n : 2 ^ n <> 0.
Proof. apply N.pow_nonzero. discriminate. Qed.
Lemma pow2_split a b : a <= b -> 2 ^ b = 2 ^ a * 2 ^ (b - a).
Proof. intros H. rewrite <- N.pow_add_r. f_equal. lia. Qed.

Lemma p256_pow w : p256 w = 2 ^ (8 * N.of_nat w).
Proof.
  induction w as [|w IH]; [reflexivity|]. cbn [p256].
  replace (8 * N.of_nat (S w)) with (8 + 8 * N.of_nat w) by lia. rewrite N.pow_add_r, IH. reflexivity.
Qed.

(* expand() extends a prefix length by pad k len bits to the next multiple k * w of k (k = 8 for IPv4: whole
   octets; k = 4 for IPv6: whole hex digits) *)
Definition pad (k len : N) : N := (k - len mod k) mod k.

Lemma round_up k len : k <> 0 -> exists w, len + pad k len = k * w /\ k * w < len + k.
Proof.
  intros Hk. unfold pad. pose proof (N.div_mod len k Hk) as E. pose proof (N.mod_lt len k Hk) as L.
  destruct (N.eq_dec (len mod k) 0) as [Z|NZ].
  - exists (len / k). rewrite Z, N.sub_0_r, N.mod_same by exact Hk. lia.
  - apply N.neq_0_lt_0 in NZ. exists (len / k + 1). rewrite N.mod_small by lia. lia.
Qed.

Lemma subnets_seq bits a len d :
  subnets bits a len d = map (fun i => a + N.of_nat i * 2 ^ (bits - (len + d))) (seq 0 (N.to_nat (2 ^ d))).
Proof. unfold subnets, nseq. rewrite map_map. reflexivity. Qed.

Section Subnets.
Variables (bits a len d : N).
Hypothesis Hwf : wf_net bits a len.
Hypothesis Hd : len + d <= bits.
Let K := 2 ^ (bits - (len + d)).

Lemma net_size : 2 ^ (bits - len) = 2 ^ d * K.
Proof. unfold K. rewrite <- N.pow_add_r. f_equal. lia. Qed.

Lemma subnet_in sub : In sub (subnets bits a len d) ->
  sub mod K = 0 /\ a <= sub /\ sub + K <= a + 2 ^ (bits - len) /\ sub < 2 ^ bits.
Proof.
  intros Hin. apply in_map_iff in Hin. destruct Hin as [i [<- Hi]]. apply In_nseq in Hi. fold K.
  destruct Hwf as [Hl [Hb Hm]]. rewrite (pow2_split len bits Hl) in *. rewrite net_size in *.
  pose proof (pow2_nz (bits - (len + d))) as HK. fold K in HK. pose proof (pow2_nz d).
  (* a is a multiple of 2^d blocks, below 2^len of them; block i lies among the first 2^d *)
  apply N.div_exact in Hm; [|lia]. set (q := a / (2 ^ d * K)) in *.
  split.
  { rewrite Hm. replace (2 ^ d * K * q + i * K) with ((2 ^ d * q + i) * K) by ring. apply N.mod_mul, HK. }
  assert (Hq : q < 2 ^ len) by (apply N.div_lt_upper_bound; lia).
  pose proof (N.mul_le_mono_r (i + 1) (2 ^ d) K ltac:(lia)).
  pose proof (N.mul_le_mono_r (q + 1) (2 ^ len) (2 ^ d * K) ltac:(lia)).
  lia.
Qed.

Lemma subnet_of x : in_net bits a len x ->
  exists sub, In sub (subnets bits a len d) /\ sub <= x /\ x < sub + K.
Proof.
  intros [H1 H2]. rewrite net_size in H2. pose proof (pow2_nz (bits - (len + d))) as HK. fold K in HK.
  pose proof (N.mul_div_le (x - a) K HK). pose proof (N.mul_succ_div_gt (x - a) K HK).
  exists (a + (x - a) / K * K). split; [|lia].
  apply in_map_iff. exists ((x - a) / K). split; [reflexivity|].
  apply In_nseq, N.div_lt_upper_bound; [exact HK | lia].
Qed.
End Subnets.

Lemma exists_of_count {A} (f : A -> bool) l (b : bool) :
  length (filter f l) = (if b then 1 else 0)%nat -> ((exists x, In x l /\ f x = true) <-> b = true).
Proof.
  intros U. destruct b; split; [reflexivity | intros _ | | discriminate].
  - destruct (filter f l) as [|x r] eqn:F; [discriminate|]. exists x.
    apply (filter_In f). rewrite F. left. reflexivity.
  - intros [x Hx]. apply (filter_In f) in Hx. apply length_zero_iff_nil in U. rewrite U in Hx. contradiction.
Qed.

Definition in_range (a : N) (r : N * N) : bool := (fst r <=? a) && (a <? snd r).
Definition cnt (a : N) (l : list (N * N)) : nat := length (filter (in_range a) l).

Lemma cnt_cons a r l : cnt a (r :: l) = ((if in_range a r then 1 else 0) + cnt a l)%nat.
Proof. unfold cnt. cbn [filter]. destruct (in_range a r); reflexivity. Qed.

Lemma cnt_tiles a lo hi l : tiles lo hi l = true ->
  lo <= hi /\ cnt a l = if (lo <=? a) && (a <? hi) then 1%nat else 0%nat.
Proof.
  revert lo. induction l as [|[x y] l IH]; intros lo H; cbn [tiles] in H.
  - apply N.eqb_eq in H. subst. split; [lia|]. unfold cnt. cbn.
    destruct (N.leb_spec hi a), (N.ltb_spec a hi); cbn; try reflexivity; lia.
  - apply andb_true_iff in H. destruct H as [H H3]. destruct (IH _ H3) as [L IH'].
    assert (x = lo /\ lo < y) as [-> H2] by lia. clear H H3 IH. split; [lia|].
    rewrite cnt_cons, IH'. unfold in_range. cbn [fst snd].
    destruct (N.leb_spec lo a), (N.ltb_spec a y), (N.leb_spec y a), (N.ltb_spec a hi); cbn [andb]; lia.
Qed.

Lemma cnt_patterns a pats rs : a < 2 ^ 32 -> map pattern_range4 pats = map Some rs ->
  length (filter (fun p => pat_matches p (show4 a)) pats) = cnt a rs.
Proof.
  intros Ha. revert rs. induction pats as [|p pats IH]; intros [|[lo hi] rs] E; try discriminate; [reflexivity|].
  injection E as E1 E2. rewrite cnt_cons, <- (IH _ E2). cbn [filter]. rewrite (pattern_range4_b p lo hi a E1 Ha).
  change (in_range a (lo, hi)) with ((lo <=? a) && (a <? hi)).
  destruct ((lo <=? a) && (a <? hi)); reflexivity.
Qed.

Lemma cnt_insert a x l : cnt a (insert_range x l) = cnt a (x :: l).
Proof.
  induction l as [|y l IH]; [reflexivity|]. cbn [insert_range].
  destruct (fst x <=? fst y); [reflexivity|]. rewrite !cnt_cons, IH, cnt_cons. lia.
Qed.
Lemma cnt_sort a l : cnt a (sort_ranges l) = cnt a l.
Proof.
  induction l as [|x l IH]; [reflexivity|]. cbn [sort_ranges fold_right].
  fold (sort_ranges l). rewrite cnt_insert, !cnt_cons, IH. reflexivity.
Qed.

Lemma exact_cover4_sound base len pats : exact_cover4 base len pats = true ->
  forall a, a < 2 ^ 32 ->
    length (filter (fun p => pat_matches p (show4 a)) pats) = if in_netb 32 base len a then 1%nat else 0%nat.
Proof.
  unfold exact_cover4. destruct (opt_all (map pattern_range4 pats)) as [rs|] eqn:E; [|discriminate].
  intros T a Ha. apply oseq_Some in E.
  rewrite (cnt_patterns a pats rs Ha E), <- cnt_sort. exact (proj2 (cnt_tiles a _ _ _ T)).
Qed.

Lemma tiles_blocks base K n s : 0 < K ->
  tiles (base + N.of_nat s * K) (base + N.of_nat (s + n) * K)
    (map (fun i => (base + N.of_nat i * K, base + N.of_nat i * K + K)) (seq s n)) = true.
Proof.
  intros HK. revert s. induction n as [|n IH]; intros s; cbn [seq map tiles].
  - rewrite Nat.add_0_r. apply N.eqb_refl.
  - rewrite N.eqb_refl. replace (_ <? _) with true by (symmetry; apply N.ltb_lt; lia). cbn [andb].
    replace (base + N.of_nat s * K + K) with (base + N.of_nat (S s) * K) by lia.
    rewrite <- Nat.add_succ_comm. apply IH.
Qed.

Lemma v4_count base len : length (expand4 base len) = N.to_nat (2 ^ pad 8 len).
Proof. unfold expand4. rewrite subnets_seq, !map_length. apply seq_length. Qed.

Section V4.
Variables (base len : N).
Hypothesis Hwf : wf_net 32 base len.

Let d := pad 8 len.
Let nl := len + d.
Let wg := N.to_nat (nl / 8).
Let K := p256 (4 - wg).

Lemma octet_boundary : (wg <= 4)%nat /\ N.of_nat wg = nl / 8 /\ 2 ^ (32 - nl) = K /\ nl <= 32.
Proof.
  destruct Hwf as [Hl _]. unfold K, wg.
  destruct (round_up 8 len ltac:(discriminate)) as [w [E B]]. fold d in E. fold nl in E.
  rewrite E, N.mul_comm, N.div_mul by discriminate.
  split; [lia|]. split; [apply N2Nat.id|]. split; [|lia].
  rewrite p256_pow. f_equal. lia.
Qed.

Lemma expand4_eq : expand4 base len = map (pat4 (nl / 8)) (subnets 32 base len d).
Proof. reflexivity. Qed.

Lemma K_pos : 0 < K.
Proof. apply p256_pos. Qed.

Lemma subnet4 sub : In sub (subnets 32 base len d) ->
  pattern_range4 (pat4 (nl / 8) sub) = Some (sub, sub + K) /\
  base <= sub /\ sub + K <= base + 2 ^ (32 - len) /\ sub < 2 ^ 32.
Proof.
  intros Hin. destruct octet_boundary as [Hw [E1 [E2 Hnl]]].
  destruct (subnet_in 32 base len d Hwf Hnl sub Hin) as [S2 [S3 [S4 S1]]].
  fold nl in S2, S4. rewrite E2 in S2, S4. rewrite <- E1.
  split; [exact (pattern_range4_pat4 wg _ Hw S1 S2) | auto].
Qed.

Lemma ranges4 :
  map pattern_range4 (expand4 base len) = map Some (map (fun sub => (sub, sub + K)) (subnets 32 base len d)).
Proof. rewrite expand4_eq, !map_map. apply map_ext_in. intros sub Hin. apply (subnet4 sub Hin). Qed.

Lemma v4_exact_unique a : a < 2 ^ 32 ->
  length (filter (fun p => pat_matches p (show4 a)) (expand4 base len))
  = if in_netb 32 base len a then 1%nat else 0%nat.
Proof.
  intros Ha. rewrite (cnt_patterns a _ _ Ha ranges4). destruct octet_boundary as [_ [_ [E2 Hnl]]].
  unfold in_netb. rewrite subnets_seq, (net_size 32 len d Hnl), map_map. fold nl. rewrite E2.
  rewrite (proj2 (cnt_tiles a _ _ _ (tiles_blocks base K _ 0 K_pos))).
  rewrite N.mul_0_l, N.add_0_r, Nat.add_0_l, N2Nat.id. reflexivity.
Qed.

Lemma v4_exact a : a < 2 ^ 32 ->
  ((exists p, In p (expand4 base len) /\ pat_matches p (show4 a) = true) <-> in_net 32 base len a).
Proof.
  intros Ha. rewrite (exists_of_count _ _ _ (v4_exact_unique a Ha)).
  unfold in_netb, in_net. rewrite andb_true_iff, N.leb_le, N.ltb_lt. reflexivity.
Qed.

Lemma v4_witness p : In p (expand4 base len) ->
  exists a, a < 2 ^ 32 /\ in_net 32 base len a /\ pat_matches p (show4 a) = true.
Proof.
  rewrite expand4_eq. intros Hin. apply in_map_iff in Hin. destruct Hin as [sub [<- Hin]].
  destruct (subnet4 sub Hin) as [R [S3 [S4 S1]]]. pose proof K_pos.
  exists sub. split; [exact S1|]. split; [unfold in_net; lia|].
  apply (pattern_range4_ok _ _ _ R _ S1). lia.
Qed.

Lemma v4_nodup : NoDup (expand4 base len).
Proof.
  apply (NoDup_map_inv pattern_range4). rewrite ranges4, subnets_seq, !map_map.
  apply FinFun.Injective_map_NoDup; [|apply seq_NoDup].
  intros i j [= E _]. pose proof K_pos. nia.
Qed.
End V4.
