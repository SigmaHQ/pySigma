(* C07 for SigmaCollection.from_dicts (Model/CollLoader.v): strict mode raises the first error that collecting mode
   collects; only Sigma errors escape when every document handed to a loader lies in that loader's domain; collecting
   mode returns when there is no correlation rule and filters are collected, not applied - and a witness that it
   raises when they are applied. *)
From Coq Require Import NArith ZArith List Bool.
From PS Require Import Base.Outcome Model.Yaml Model.LoaderStrings Model.Loader Model.CollLoader
                       Spec.LoaderSpec Proofs.OutcomeP Proofs.LoaderP.
Import ListNotations.
Open Scope N_scope.

(* every document the loop hands to a single-document loader lies in that loader's domain *)
Definition item_dom (i : item) : bool := match i with IDoc k d => dom k d | _ => true end.
Definition coll_dom (ds : list yv) : bool := forallb item_dom (plan ds).
(* ... and none of them is a correlation rule: rules and filters only (`rf`) *)
Definition item_dom_rf (i : item) : bool :=
  match i with IDoc KCorr _ => false | IDoc k d => dom k d | _ => true end.

Section CollP.
Variable L : lib.

Lemma run_items_agrees its : forall errs0 objs0 errs objs,
  run_items L true its errs0 objs0 = Ok (errs, objs) ->
  exists t, errs = errs0 ++ t /\
    run_items L false its [] objs0 = match t with [] => Ok ([], objs) | e :: _ => SigmaErr e end.
Proof.
  induction its as [|i r IH]; intros errs0 objs0 errs objs H; cbn [run_items] in *.
  - injection H as <- <-. exists []. rewrite app_nil_r. auto.
  - destruct i as [| |k d].
    1, 2: destruct (IH _ _ _ _ H) as (t & -> & _); exists (ECollection :: t); rewrite <- app_assoc; auto.
    destruct (load L k true d) as [e|?|?] eqn:E; cbn [obind] in H; try discriminate.
    destruct (IH _ _ _ _ H) as (t & -> & Ht). exists (e ++ t). rewrite app_assoc. split; [reflexivity|].
    rewrite (load_agrees L k d e E). destruct e; [exact Ht | reflexivity].
Qed.

Theorem coll_agrees cf rr ds errs :
  load_coll L true cf rr ds = Ok errs -> load_coll L false cf rr ds = strict_of errs.
Proof.
  unfold load_coll. destruct (run_items L true (plan ds) [] []) as [[es objs]|?|?] eqn:R; try discriminate.
  destruct (run_items_agrees _ _ _ _ _ R) as (t & -> & ->). cbn [obind snd fst app].
  destruct (post_init L cf rr objs) as [[]|?|?] eqn:P; cbn [obind]; try discriminate.
  intros [= <-]. destruct t; [cbn [obind snd fst]; rewrite P|]; reflexivity.
Qed.

(* what keeps apply_one from indexing an empty condition list: the placeholder never has rules *)
Definition obj_ok (o : obj) : bool := negb (o_placeholder o && o_rules_given o).
Lemma summary_ok k d : obj_ok (summary L k d) = true.
Proof.
  unfold obj_ok, summary. cbn [o_placeholder o_rules_given].
  destruct k; try reflexivity.
  destruct (has_errors (st_filter L d)); reflexivity.
Qed.

Lemma run_items_safe c its : forall errs0 objs0,
  forallb item_dom its = true -> Forall (fun o => obj_ok o = true) objs0 ->
  ensures False (fun r => Forall (fun o => obj_ok o = true) (snd r)) (run_items L c its errs0 objs0).
Proof.
  induction its as [|i r IH]; intros errs0 objs0 Hd Ho; cbn [run_items]; [exact Ho|].
  cbn [forallb] in Hd. apply andb_true_iff in Hd as [Hi Hr].
  destruct i as [| |k d]; try (destruct c; [apply IH; assumption | exact I]).
  apply (ensures_bind False (fun _ => True)); [apply safe_sigma_only, sigma_only_all, Hi | intros e _].
  apply IH; [exact Hr|]. apply Forall_app. split; [exact Ho|]. constructor; [apply summary_ok | constructor].
Qed.

Lemma post_init_safe cf rr objs : Forall (fun o => obj_ok o = true) objs -> safe (post_init L cf rr objs).
Proof.
  intros Ho. unfold post_init. apply obind_safe.
  - destruct cf; [exact I|]. apply iter_out_safe. intros r _. destruct (is_rule r); [|exact I].
    apply iter_out_safe. intros f Hf. apply filter_In in Hf as [Hf _].
    apply (proj1 (Forall_forall _ _) Ho) in Hf. unfold apply_one, obj_ok in *.
    apply ensures_if; [exact I|]. destruct (o_placeholder f && o_rules_given f); [discriminate Hf | exact I].
  - intros _. destruct rr; [|exact I]. apply iter_out_safe. intros c _. destruct (is_corr c); [|exact I].
    apply iter_out_safe. intros ref _. apply ensures_if; exact I.
Qed.

Theorem coll_sigma_only c cf rr ds : coll_dom ds = true -> sigma_only (load_coll L c cf rr ds).
Proof.
  intros Hd. apply safe_sigma_only. unfold load_coll.
  eapply ensures_bind; [exact (run_items_safe c (plan ds) [] [] Hd (Forall_nil _)) | intros r Hr].
  apply obind_safe; [apply post_init_safe, Hr | intros; exact I].
Qed.

(* no member is a correlation rule: `resolve` then has no reference to look up *)
Lemma run_items_total its : forall errs0 objs0,
  forallb item_dom_rf its = true ->
  exists errs objs, run_items L true its errs0 objs0 = Ok (errs, objs) /\
                    (Forall (fun o => is_corr o = false) objs0 -> Forall (fun o => is_corr o = false) objs).
Proof.
  induction its as [|i r IH]; intros errs0 objs0 Hd; cbn [run_items]; [eauto|].
  cbn [forallb] in Hd. apply andb_true_iff in Hd as [Hi Hr].
  destruct i as [| |k d]; try (apply IH; assumption).
  assert (Hk : k <> KCorr /\ dom k d = true) by (destruct k; try discriminate Hi; (split; [discriminate | exact Hi])).
  destruct (collect_total_all L k d (proj1 Hk) (proj2 Hk)) as [e ->]. cbn [obind].
  destruct (IH (errs0 ++ e) (objs0 ++ [summary L k d]) Hr) as (errs & objs & H & F).
  exists errs, objs. split; [exact H|]. intros F0. apply F, Forall_app. split; [exact F0|]. constructor; [|constructor].
  destruct k; try reflexivity. destruct (proj1 Hk eq_refl).
Qed.

(* collecting mode returns for collections without correlation rules whose filters are only collected *)
Theorem coll_collect_total rr ds :
  forallb item_dom_rf (plan ds) = true -> total (load_coll L true true rr ds).
Proof.
  intros Hd. unfold load_coll. destruct (run_items_total (plan ds) [] [] Hd) as (errs & objs & -> & F).
  cbn [obind snd fst]. exists errs. unfold post_init. cbn [obind]. destruct rr; [|reflexivity].
  unfold resolve. rewrite iter_out_ok; [reflexivity|].
  apply (incl_Forall (incl_filter _ objs)). eapply Forall_impl; [|exact (F (Forall_nil _))].
  intros o Ho. cbn beta. rewrite Ho. reflexivity.
Qed.
End CollP.

(* with default arguments collecting mode raises (finding collection-postprocessing-raises):
   [ rule ; filter whose log source is missing ] *)
Definition w_coll_post : list yv :=
  [ w_rule;
    YMap [(k s_title, k [70]);
          (k s_filter, YMap [(k s_rules, k s_any); (k [115], YMap [(k [97], YInt 1)]); (k s_condition, k [115])])] ].
Lemma coll_post_refuted :
  exists L ds e, coll_dom ds = true /\ load_coll L true false true ds = SigmaErr e /\
                 exists errs, load_coll L true true false ds = Ok errs.
Proof. exists lib_w, w_coll_post, EType. repeat split; try (vm_compute; reflexivity). eexists. vm_compute. reflexivity. Qed.
