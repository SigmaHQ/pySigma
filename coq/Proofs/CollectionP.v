(* C08 - proofs: the operational model of Backend.convert (Model/Collection.v) against the per-rule
   specification (Spec/Collection.v). *)
From Coq Require Import List Bool Arith Sorted.
From PS Require Import Base.Outcome Model.Collection Spec.Collection.
Import ListNotations.

Section Proofs.
Variables query drule crule output : Type.
Variable conv1 : drule -> outcome (list query).
Variable finq : payload drule crule -> nat -> query -> outcome query.
Variable cpre : crule -> outcome unit.
Variable cpost : crule -> list (list query) -> outcome (list query).
Variable finout : list query -> outcome output.
Variable fcs : bool.

Notation rule := (rule drule crule).
Notation dtree := (dtree drule crule).
Notation state := (state query).
Notation finish := (finish query drule crule finq fcs).
Notation alone := (alone query drule crule conv1 finq cpre cpost fcs).
Notation sopt := (sopt query drule crule conv1 finq cpre cpost fcs).
Notation mk_tree := (mk_tree drule crule).
Notation trees_from := (trees_from drule crule).
Notation trees := (trees drule crule).
Notation exp_queries := (exp_queries query drule crule conv1 finq cpre cpost fcs).
Notation exp_errors := (exp_errors query drule crule conv1 finq cpre cpost fcs).
Notation conv_raw := (conv_raw query drule crule conv1 cpre cpost).
Notation step := (step query drule crule conv1 finq cpre cpost fcs).
Notation run := (run query drule crule conv1 finq cpre cpost fcs).
Notation convert := (convert query drule crule output conv1 finq cpre cpost finout fcs).
Notation out_enabled := (out_enabled drule crule).
Notation has_backref := (has_backref drule crule).

Lemma lookup_sopt (acc : list dtree) j :
  lookup query (map sopt acc) j =
  match nth_error acc j with
  | Some t' => stored (alone t')
  | None => None
  end.
Proof.
  unfold lookup. rewrite nth_error_map. destruct (nth_error acc j) as [t'|]; simpl; [|reflexivity].
  unfold Spec.Collection.sopt. destruct (stored (alone t')); reflexivity.
Qed.

(* one rule: the conversion in the running state equals the conversion of its dependency tree *)
Lemma conv_raw_alone C i (r : rule) (acc : list dtree) :
  finish (payload_of drule crule r) (out_enabled C i) (has_backref C i) (conv_raw (map sopt acc) r)
  = alone (mk_tree C i r acc).
Proof.
  destruct r as [d | c refs g]; [reflexivity|].
  cbn [Spec.Collection.mk_tree Spec.Collection.alone payload_of Collection.conv_raw].
  rewrite map_map, (map_ext _ _ (lookup_sopt acc)). reflexivity.
Qed.

Definition loop_stops {A} (collect : bool) (o : outcome A) : bool :=
  match o with Ok _ => false | SigmaErr _ => negb collect | Crash _ => true end.

Definition state_plus (st : state) (i : nat) (ts : list dtree) : state :=
  {| results := results st ++ map sopt ts;
     errors := errors st ++ exp_errors i ts;
     emitted := emitted st ++ exp_queries ts |}.

Lemma state_plus_nil st i : state_plus st i [] = st.
Proof. unfold state_plus. cbn. rewrite !app_nil_r. destruct st; reflexivity. Qed.

Lemma state_plus_cons st i t ts : state_plus (state_plus st i [t]) (S i) ts = state_plus st i (t :: ts).
Proof.
  unfold state_plus. cbn [results errors emitted map Spec.Collection.exp_errors Spec.Collection.exp_queries flat_map].
  rewrite !app_nil_r, <- !app_assoc. reflexivity.
Qed.

Lemma step_tree collect C i r acc st :
  results st = map sopt acc ->
  step collect C i r st =
  let t := mk_tree C i r acc in
  if loop_stops collect (ret (alone t)) then (st, err_of (ret (alone t))) else (state_plus st i [t], Ok tt).
Proof.
  intros Hres. unfold Collection.step, state_plus. rewrite Hres, conv_raw_alone.
  cbn [map Spec.Collection.exp_errors Spec.Collection.exp_queries flat_map]. unfold Spec.Collection.sopt at 2 3.
  destruct (ret (alone (mk_tree C i r acc))) as [qs|e|c]; [|destruct collect|]; cbn [loop_stops negb err_of];
    rewrite ?app_nil_r; reflexivity.
Qed.

Definition loop_end (rest : list dtree) : outcome unit :=
  match rest with [] => Ok tt | t :: _ => err_of (ret (alone t)) end.

(* the loop in closed form: it converts the trees up to the first one that stops it.  Every list of trees splits
   in this way, so this determines the loop in both modes. *)
Lemma run_split collect C : forall rs acc i st pre rest,
  results st = map sopt acc ->
  trees_from C i rs acc = pre ++ rest ->
  forallb (fun t => negb (loop_stops collect (ret (alone t)))) pre = true ->
  match rest with [] => True | t :: _ => loop_stops collect (ret (alone t)) = true end ->
  run collect C i rs st = (state_plus st i pre, loop_end rest).
Proof.
  induction rs as [|r rs IH]; intros acc i st pre rest Hres HT Hpre Hrest; cbn [Collection.run Spec.Collection.trees_from] in *.
  - destruct pre; [|discriminate HT]. destruct rest; [|discriminate HT]. rewrite state_plus_nil. reflexivity.
  - rewrite (step_tree collect C i r acc st Hres). cbv zeta. destruct pre as [|t pre].
    + destruct rest as [|t rest]; [discriminate HT|]. injection HT as <- _. rewrite Hrest, state_plus_nil.
      cbn [loop_end]. destruct (ret (alone _)); [discriminate Hrest | reflexivity..].
    + injection HT as <- HT. cbn [forallb] in Hpre. apply andb_true_iff in Hpre as [Ht Hpre].
      apply negb_true_iff in Ht. rewrite Ht, <- (state_plus_cons st i _ pre).
      apply (IH (acc ++ [mk_tree C i r acc])); try assumption.
      cbn [state_plus results]. rewrite Hres, map_app. reflexivity.
Qed.

Theorem convert_split collect C pre rest :
  trees C = pre ++ rest ->
  forallb (fun t => negb (loop_stops collect (ret (alone t)))) pre = true ->
  match rest with [] => True | t :: _ => loop_stops collect (ret (alone t)) = true end ->
  convert collect C =
  ({| results := map sopt pre; errors := exp_errors 0 pre; emitted := exp_queries pre |},
   match rest with [] => finout (exp_queries pre) | t :: _ => err_of (ret (alone t)) end).
Proof.
  intros HT Hpre Hrest. unfold Collection.convert.
  rewrite (run_split collect C C [] 0 (init query) pre rest eq_refl HT Hpre Hrest).
  destruct rest as [|t rest]; [reflexivity|]. cbn [loop_end].
  destruct (ret (alone t)); [discriminate Hrest | reflexivity..].
Qed.

Theorem convert_pass collect C :
  forallb (fun t => negb (loop_stops collect (ret (alone t)))) (trees C) = true ->
  convert collect C =
  ({| results := map sopt (trees C); errors := exp_errors 0 (trees C); emitted := exp_queries (trees C) |},
   finout (exp_queries (trees C))).
Proof. intros H. exact (convert_split collect C (trees C) [] (eq_sym (app_nil_r _)) H I). Qed.

Lemma ok_passes collect ts :
  forallb (fun t => is_ok (ret (alone t))) ts = true ->
  forallb (fun t => negb (loop_stops collect (ret (alone t)))) ts = true.
Proof.
  rewrite !forallb_forall. intros H t Ht. specialize (H t Ht).
  destruct (ret (alone t)); [reflexivity | discriminate H..].
Qed.

Lemma exp_errors_all_ok : forall ts i,
  forallb (fun t => is_ok (ret (alone t))) ts = true -> exp_errors i ts = [].
Proof.
  induction ts as [|t ts IH]; intros i H; [reflexivity|].
  cbn [forallb] in H. apply andb_true_iff in H as [Ht Hts].
  cbn [Spec.Collection.exp_errors]. destruct (ret (alone t)); try discriminate. apply IH, Hts.
Qed.

(* collecting mode, no non-Sigma exception: every query accounted for, one record per failing rule.
   In collecting mode only a non-Sigma exception stops the loop: `loop_stops true o` computes to `is_crash o`. *)
Theorem accounting C :
  forallb (fun t => negb (is_crash (ret (alone t)))) (trees C) = true ->
  convert true C =
  ({| results := map sopt (trees C); errors := exp_errors 0 (trees C); emitted := exp_queries (trees C) |},
   finout (exp_queries (trees C))).
Proof. exact (convert_pass true C). Qed.

Theorem first_error C pre t post :
  trees C = pre ++ t :: post ->
  forallb (fun t => is_ok (ret (alone t))) pre = true ->
  is_ok (ret (alone t)) = false ->
  convert false C =
  ({| results := map sopt pre; errors := []; emitted := exp_queries pre |}, err_of (ret (alone t))).
Proof.
  intros HT Hpre Ht.
  rewrite (convert_split false C pre (t :: post) HT (ok_passes false pre Hpre)), (exp_errors_all_ok pre 0 Hpre); [reflexivity|].
  destruct (ret (alone t)); [discriminate Ht | reflexivity..].
Qed.

Theorem no_error C :
  forallb (fun t => is_ok (ret (alone t))) (trees C) = true ->
  forall collect,
  convert collect C =
  ({| results := map sopt (trees C); errors := []; emitted := exp_queries (trees C) |},
   finout (exp_queries (trees C))).
Proof.
  intros H collect. rewrite (convert_pass collect C (ok_passes collect _ H)), (exp_errors_all_ok _ 0 H). reflexivity.
Qed.

(* collecting mode: a non-Sigma exception is not caught; what was collected before it stays *)
Theorem crash_propagates C pre t post c :
  trees C = pre ++ t :: post ->
  forallb (fun t => negb (is_crash (ret (alone t)))) pre = true ->
  ret (alone t) = Crash c ->
  convert true C =
  ({| results := map sopt pre; errors := exp_errors 0 pre; emitted := exp_queries pre |}, Crash c).
Proof.
  intros HT Hpre Ht. rewrite (convert_split true C pre (t :: post) HT Hpre); rewrite Ht; reflexivity.
Qed.

(* backend.errors: exactly one record per failing rule, in collection order *)
Lemma exp_errors_In : forall ts i k e,
  In (k, e) (exp_errors i ts) <->
  exists j t, k = i + j /\ nth_error ts j = Some t /\ ret (alone t) = SigmaErr e.
Proof.
  induction ts as [|t ts IH]; intros i k e; cbn [Spec.Collection.exp_errors].
  - split; [intros [] | intros ([|j] & t & _ & H & _); discriminate H].
  - rewrite in_app_iff, IH. split.
    + intros [H | (j & t' & -> & H)].
      * destruct (ret (alone t)) eqn:E; [destruct H | | destruct H].
        destruct H as [[= <- <-]|[]]. exists 0, t. rewrite Nat.add_0_r. auto.
      * exists (S j), t'. rewrite Nat.add_succ_r. auto.
    + intros ([|j] & t' & -> & Hn & Ha).
      * left. injection Hn as ->. rewrite Ha, Nat.add_0_r. left. reflexivity.
      * right. exists j, t'. rewrite Nat.add_succ_r. auto.
Qed.

Lemma exp_errors_lb : forall ts i k e, In (k, e) (exp_errors i ts) -> i <= k.
Proof. intros ts i k e H. apply exp_errors_In in H as (j & _ & -> & _). apply Nat.le_add_r. Qed.

Lemma exp_errors_sorted : forall ts i, StronglySorted (fun a b => fst a < fst b) (exp_errors i ts).
Proof.
  induction ts as [|t ts IH]; intros i; cbn [Spec.Collection.exp_errors]; [constructor|].
  destruct (ret (alone t)) as [rr|e|c]; cbn [app]; try apply IH.
  constructor; [apply IH|]. apply Forall_forall. intros [k e'] H. exact (exp_errors_lb _ _ _ _ H).
Qed.

Lemma trees_from_length C : forall rs i acc, length (trees_from C i rs acc) = length rs.
Proof. induction rs as [|r rs IH]; intros; cbn; [reflexivity|]. rewrite IH. reflexivity. Qed.

Lemma trees_length C : length (trees C) = length C.
Proof. apply trees_from_length. Qed.

(* The loop invariant of trees_from, read at position k: the accumulator holds the trees of the rules before the
   current one, so rule k is built over acc and the k trees made since.  `option_map` covers k out of range. *)
Lemma trees_from_nth C : forall rs k i acc,
  nth_error (trees_from C i rs acc) k =
  option_map (fun r => mk_tree C (i + k) r (acc ++ firstn k (trees_from C i rs acc))) (nth_error rs k).
Proof.
  induction rs as [|r rs IH]; intros k i acc; [destruct k; reflexivity|].
  destruct k as [|k].
  - cbn. rewrite Nat.add_0_r, app_nil_r. reflexivity.
  - cbn [Spec.Collection.trees_from nth_error firstn]. rewrite IH, Nat.add_succ_r.
    destruct (nth_error rs k); [|reflexivity]. cbn [option_map Nat.add]. rewrite <- app_assoc. reflexivity.
Qed.

Lemma tree_nth C i :
  nth_error (trees C) i = option_map (fun r => mk_tree C i r (firstn i (trees C))) (nth_error C i).
Proof. apply trees_from_nth. Qed.

Theorem tree_det C i d :
  nth_error C i = Some (Det d) ->
  nth_error (trees C) i = Some (Leaf d (out_enabled C i) (has_backref C i)).
Proof. intros H. rewrite tree_nth, H. reflexivity. Qed.

Lemma same_shape_refs (r r' : rule) : same_shape drule crule r r' -> refs_of drule crule r = refs_of drule crule r'.
Proof. destruct r, r'; cbn; easy. Qed.

Lemma existsb_Forall2 {A} (R : A -> A -> Prop) (f : A -> bool) l l' :
  (forall a b, R a b -> f a = f b) -> Forall2 R l l' -> existsb f l = existsb f l'.
Proof. intros H. induction 1; cbn [existsb]; [reflexivity|]. f_equal; auto. Qed.

Lemma same_shape_flags C C' i :
  Forall2 (same_shape drule crule) C C' ->
  out_enabled C i = out_enabled C' i /\ has_backref C i = has_backref C' i.
Proof.
  intros HS. unfold Collection.out_enabled, Collection.has_backref.
  split; [f_equal|]; (eapply existsb_Forall2; [|exact HS]); intros r r' Hr.
  - destruct r, r'; cbn in Hr; try contradiction; [reflexivity|]. destruct Hr as (_ & -> & ->). reflexivity.
  - rewrite (same_shape_refs r r' Hr). reflexivity.
Qed.

Lemma nth_error_firstn {A} (l : list A) : forall i j,
  nth_error (firstn i l) j = if j <? i then nth_error l j else None.
Proof.
  induction l as [|x l IH]; intros i j.
  - rewrite firstn_nil. destruct j; destruct (_ <? _); reflexivity.
  - destruct i as [|i]; [destruct j; reflexivity|].
    destruct j as [|j]; [reflexivity|]. exact (IH i j).
Qed.

(* isolation, for every rule: its dependency tree - hence its outcome, stored result, emitted queries and error
   record - is determined by the rules it reaches through backward references, and the reference structure *)
Theorem closure_isolation C C' :
  Forall2 (same_shape drule crule) C C' ->
  forall i, (forall k, reach drule crule C i k -> nth_error C k = nth_error C' k) ->
  nth_error (trees C) i = nth_error (trees C') i.
Proof.
  intros HS i. induction i as [i IH] using lt_wf_ind. intros Hag.
  rewrite !tree_nth, <- (Hag i (reach_refl drule crule C i)).
  destruct (nth_error C i) as [r|] eqn:Er; [|reflexivity]. cbn [option_map]. f_equal.
  destruct (same_shape_flags C C' i HS) as [Ho Hb].
  destruct r as [d | c refs g]; cbn [Spec.Collection.mk_tree]; rewrite Ho, Hb; [reflexivity|].
  (* a reference contributes the tree of an earlier rule, which i reaches *)
  f_equal. apply map_ext_in. intros j Hj. rewrite !nth_error_firstn.
  destruct (j <? i) eqn:Hlt; [|reflexivity]. apply Nat.ltb_lt in Hlt.
  apply IH; [exact Hlt|]. intros k Hk. apply Hag.
  eapply reach_step; [exact Er | exact Hj | exact Hlt | exact Hk].
Qed.

(* a detection rule reaches only itself: whatever is done to the other rules' contents (made to fail at any stage,
   repaired, replaced), its tree is the same.  The statement mentions none of the conversion functions;
   `Proof using` keeps them as arguments of the closed lemma only because Props/C08.v passes them. *)
Theorem isolation C C' i d :
  Forall2 (same_shape drule crule) C C' ->
  nth_error C i = Some (Det d) -> nth_error C' i = Some (Det d) ->
  nth_error (trees C) i = nth_error (trees C') i.
Proof using conv1 finq cpre cpost.
  intros HS H H'. apply (closure_isolation C C' HS). intros k R.
  destruct R as [i | i j k r Hr Hj _ _]; [congruence|].
  rewrite H in Hr. injection Hr as <-. destruct Hj.
Qed.

(* what is stored for the referring correlation rules does not depend on the rule's own output switch *)
Lemma stored_out_irrelevant p out out' br raw :
  stored (finish p out br raw) = stored (finish p out' br raw).
Proof.
  unfold Collection.finish. destruct raw as [qs|e|c]; try reflexivity.
  destruct (fcs || negb br); [|reflexivity].
  destruct (fin_all query drule crule finq p 0 qs); reflexivity.
Qed.

Theorem alone_singleton d collect :
  convert collect [Det d] =
  let rr := alone (Leaf d true false) in
  match ret rr with
  | Ok qs => ({| results := [stored rr]; errors := []; emitted := qs |}, finout qs)
  | SigmaErr e => if collect then ({| results := [stored rr]; errors := [(0, e)]; emitted := [] |}, finout [])
                  else (init query, SigmaErr e)
  | Crash c => (init query, Crash c)
  end.
Proof.
  unfold Collection.convert, Collection.run, Collection.step.
  cbn -[Collection.finish].
  destruct (ret (finish (PD d) true false (conv1 d))) as [rr|e|c]; [reflexivity| |reflexivity].
  destruct collect; reflexivity.
Qed.

End Proofs.
