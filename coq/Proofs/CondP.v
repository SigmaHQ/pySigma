(* C02 - postprocessing: post checks that every name of the parse tree is a detection and is a total
   function otherwise (post_defined); where every selector selects something, the condition tree that
   function returns has the meaning of the parse tree (post_pure_sound). Together with
   Proofs/CondParseP.v: end-to-end meaning of a spelled condition. Last, a canonical layout of a token sequence
   (render) and the condition that shows the premise on selectors to be needed. *)
From Coq Require Import NArith List Bool.
From PS Require Import Base.Chars Base.Outcome Model.CondParse Model.Cond Spec.CondGrammar
                       Proofs.CharsP Proofs.GlobP Proofs.CondParseP.
Import ListNotations.
Open Scope N_scope.

(* observations of a parse tree, as folds into bool (so that Proofs.CondParseP.parse_complete_fold
   transfers them from the expression) *)
Definition and2 (_ : bop) (a b : bool) : bool := a && b.
Definition all_and (_ : bop) (l : list bool) : bool := forallb (fun b => b) l.
Definition ne_and (o : bop) (l : list bool) : bool := nonempty l && all_and o l.

Definition tdefined (dets : list str) : ptree -> bool :=
  foldt (fun n => mem_str n dets) (fun _ _ => true) (fun x => x) all_and.
Definition tready (dets : list str) : ptree -> bool :=
  foldt (fun _ => true) (fun _ p => nonempty (sel_names dets p)) (fun x => x) ne_and.

Lemma lawful_all : lawful all_and and2.
Proof. destruct lawful_bool as [L1 L2]. split; intros o; [apply (L1 BAnd) | apply (L2 BAnd)]. Qed.

Lemma lawful_ne : lawful ne_and and2.
Proof.
  destruct lawful_all as [L1 L2]. split; intros o; unfold ne_and.
  - intros x. apply L1.
  - intros l v Hl. rewrite L2 by assumption. destruct l; [congruence|reflexivity].
Qed.

Lemma folde_defined dets e :
  folde (fun n => mem_str n dets) (fun _ _ => true) (fun x => x) and2 e = defined dets e.
Proof.
  unfold defined, and2. induction e; simpl; rewrite ?forallb_app; try congruence. symmetry. apply andb_true_r.
Qed.

Lemma folde_ready dets e :
  folde (fun _ => true) (fun _ p => nonempty (sel_names dets p)) (fun x => x) and2 e = inhabited dets e.
Proof.
  unfold inhabited, and2. induction e; simpl; rewrite ?forallb_app; try congruence. symmetry. apply andb_true_r.
Qed.

Lemma fold_tdefined dets t e : same_folds t e -> tdefined dets t = defined dets e.
Proof. intros Hf. unfold tdefined. rewrite (Hf _ _ _ _ _ and2 lawful_all). apply folde_defined. Qed.

Lemma fold_tready dets t e : same_folds t e -> tready dets t = inhabited dets e.
Proof. intros Hf. unfold tready. rewrite (Hf _ _ _ _ _ and2 lawful_ne). apply folde_ready. Qed.

Lemma ceval_bin asg o l :
  ceval asg (c_bin o l) = option_map (bool_bin o) (all_some (map (ceval_top asg) l)).
Proof. destruct o; reflexivity. Qed.

Lemma collapse_eval o args asg vs : all_some (map (ceval_top asg) args) = Some vs ->
  args <> [] -> ceval_top asg (collapse o args) = Some (bool_bin o vs).
Proof.
  intros E. destruct args as [|a [|b r]]; [congruence| |]; intros _.
  - simpl in *. destruct (ceval_top asg a); [|discriminate]. injection E as <-.
    rewrite (proj1 lawful_bool). reflexivity.
  - change (ceval asg (c_bin o (a :: b :: r)) = Some (bool_bin o vs)). rewrite ceval_bin, E. reflexivity.
Qed.

(* postprocessing apart from its one error: what post returns when every name is a detection *)
Fixpoint post_pure (dets : list str) (t : ptree) : option ctree :=
  match t with
  | PId n => Some (CLeaf n)
  | PSel q p => collapse (quant_op q) (map (fun n => Some (CLeaf n)) (resolve dets p))
  | PNot a => Some (CNot (post_pure dets a))
  | PAnd l => collapse BAnd (map (post_pure dets) l)
  | POr l => collapse BOr (map (post_pure dets) l)
  end.

Lemma post_pure_bin dets o l : post_pure dets (t_bin o l) = collapse o (map (post_pure dets) l).
Proof. destruct o; reflexivity. Qed.

Lemma post_bin dets o l :
  post dets (t_bin o l) = obind (sequence (map (post dets) l)) (fun args => Ok (collapse o args)).
Proof. destruct o; reflexivity. Qed.

Lemma tdefined_bin dets o l : tdefined dets (t_bin o l) = forallb (tdefined dets) l.
Proof. unfold tdefined. rewrite bin_hom. apply forallb_map_id. Qed.

Lemma sequence_guarded {X Y} (f : X -> outcome Y) (d : X -> bool) g c l :
  Forall (fun x => f x = if d x then Ok (g x) else SigmaErr c) l ->
  sequence (map f l) = if forallb d l then Ok (map g l) else SigmaErr c.
Proof.
  induction 1 as [|x l Hx _ IH]; simpl; [reflexivity|].
  rewrite Hx, IH. destruct (d x); [|reflexivity]. destruct (forallb d l); reflexivity.
Qed.

Theorem post_defined dets t :
  post dets t = if tdefined dets t then Ok (post_pure dets t) else SigmaErr E_Condition.
Proof.
  induction t as [n|q p|a IH|o l IH] using ptree_bin_ind.
  - simpl. destruct (mem_str n dets); reflexivity.
  - reflexivity.
  - simpl. rewrite IH. change (tdefined dets (PNot a)) with (tdefined dets a).
    destruct (tdefined dets a); reflexivity.
  - rewrite post_bin, (sequence_guarded _ _ _ _ _ IH), tdefined_bin, post_pure_bin.
    destruct (forallb (tdefined dets) l); reflexivity.
Qed.

Theorem post_undefined dets t : tdefined dets t = false -> post dets t = SigmaErr E_Condition.
Proof. intros H. rewrite post_defined, H. reflexivity. Qed.

Definition post_pure_means (dets : list str) (t : ptree) : Prop :=
  forall asg, ceval_top asg (post_pure dets t) = Some (den dets asg t).

Lemma args_eval dets l asg : Forall (post_pure_means dets) l ->
  all_some (map (ceval_top asg) (map (post_pure dets) l)) = Some (map (den dets asg) l).
Proof. intros H. rewrite map_map. apply oseq_map_Some. intros t Ht. exact (proj1 (Forall_forall _ _) H t Ht asg). Qed.

Lemma leaves_eval asg ns :
  all_some (map (ceval_top asg) (map (fun n => Some (CLeaf n)) ns)) = Some (map asg ns).
Proof. rewrite map_map. apply oseq_map_Some. reflexivity. Qed.

Theorem post_pure_sound dets t : tready dets t = true -> post_pure_means dets t.
Proof.
  unfold tready. induction t as [n|q p|a IH|o l IH] using ptree_bin_ind; intros H asg.
  - reflexivity.
  - simpl post_pure. rewrite resolve_sel_names, (collapse_eval _ _ _ _ (leaves_eval asg _)).
    + unfold den. simpl. unfold sel_val. destruct q; simpl; rewrite ?forallb_map_id, ?existsb_map_id; reflexivity.
    + simpl in H. destruct (sel_names dets p); discriminate.
  - specialize (IH H asg). simpl in *. destruct (post_pure dets a); [|discriminate]. simpl in *. rewrite IH. reflexivity.
  - rewrite bin_hom in H. apply andb_true_iff in H. destruct H as [Hl Hall].
    unfold all_and in Hall. rewrite forallb_map_id, forallb_forall in Hall.
    assert (G : Forall (post_pure_means dets) l) by (rewrite Forall_forall in *; auto).
    rewrite post_pure_bin, (collapse_eval _ _ _ _ (args_eval dets l asg G)).
    + unfold den. rewrite denv_bin. reflexivity.
    + destruct l; discriminate.
Qed.

Theorem meaning e s dets :
  wf_expr e = true -> Spells s e -> defined dets e = true -> inhabited dets e = true ->
  exists t c, parse s = Ok t /\ post dets t = Ok (Some c) /\
              forall asg, ceval asg c = Some (sem dets asg e).
Proof.
  intros Hw HS Hd Hi. destruct (parse_complete_fold e s Hw HS) as [t [Ht Hf]].
  assert (G : post_pure_means dets t).
  { apply post_pure_sound. rewrite (fold_tready dets t e Hf). exact Hi. }
  unfold post_pure_means in G. destruct (post_pure dets t) as [c|] eqn:Hc; [|discriminate (G (fun _ => true))].
  exists t, c. split; [exact Ht|]. split.
  - rewrite post_defined, Hc, (fold_tdefined dets t e Hf), Hd. reflexivity.
  - intros asg. rewrite (G asg : ceval asg c = _). f_equal. apply (fold_denv t e Hf).
Qed.

Theorem undefined_reported e s dets :
  wf_expr e = true -> Spells s e -> defined dets e = false ->
  exists t, parse s = Ok t /\ post dets t = SigmaErr E_Condition.
Proof.
  intros Hw HS Hd. destruct (parse_complete_fold e s Hw HS) as [t [Ht Hf]].
  exists t. split; [exact Ht|]. apply post_undefined. rewrite (fold_tdefined dets t e Hf). exact Hd.
Qed.

(* a canonical layout: every token sequence of words can be written down *)
Fixpoint render (ts : list tok) : str :=
  match ts with
  | [] => []
  | TW w :: r => c_space :: w ++ render r
  | TL :: r => c_lpar :: render r
  | TR :: r => c_rpar :: render r
  end.

Definition word_tok (t : tok) : Prop := match t with TW w => word w | _ => True end.

Lemma render_lay ts : Forall word_tok ts -> forall b, Lay b ts (render ts).
Proof.
  induction 1 as [|t ts Ht _ IH]; intros b.
  - apply (lay_nil b []). reflexivity.
  - destruct t as [w| |]; simpl.
    + apply (lay_word b [c_space] w ts (render ts)); auto; [reflexivity | discriminate].
    + apply (lay_lpar b [] ts (render ts)); [reflexivity | apply IH].
    + apply (lay_rpar b [] ts (render ts)); [reflexivity | apply IH].
Qed.

(* without the premise "every selector selects something" the statement is false *)
Definition wit_dets : list str := [[97]; [98]].
Definition wit_e : expr := EAnd (EId [97]) (ESel Q1 [120; 42]).
Definition wit_ts : list tok := [TW [97]; TW w_and; TW w_1; TW w_of; TW [120; 42]].
Definition wit_s : str := render wit_ts.          (* " a and 1 of x*" *)

Lemma wit_spells : Spells wit_s wit_e.
Proof.
  exists wit_ts. split.
  - apply render_lay. repeat constructor; try discriminate.
  - apply (sp_up 2). apply (sp_and [TW [97]] [TW w_1; TW w_of; TW [120; 42]] (EId [97]) (ESel Q1 [120; 42])).
    + apply (sp_up 1), (sp_up 0), sp_id.
    + apply (sp_up 0). exact (sp_sel Q1 [120; 42]).
Qed.

Theorem empty_selector_refuted :
  exists dets e s, wf_expr e = true /\ Spells s e /\ defined dets e = true /\
    forall c, run_post dets s = Ok c -> exists asg, ceval_top asg c <> Some (sem dets asg e).
Proof.
  exists wit_dets, wit_e, wit_s. split; [reflexivity|]. split; [exact wit_spells|]. split; [reflexivity|].
  intros c H. vm_compute in H. inversion H; subst. exists (fun _ => true). vm_compute. discriminate.
Qed.
