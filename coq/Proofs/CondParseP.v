(* C02 - proofs about the condition parser model: the lexer reads every layout of a token
   sequence; fuel is monotone and the entry point's always suffices; the parser run in any algebra
   is the tree parser followed by the fold; the PEG is complete for the stratified grammar. *)
From Coq Require Import NArith List Bool Arith Lia.
From PS Require Import Base.Chars Base.Outcome Model.CondParse Spec.CondGrammar Proofs.OutcomeP Proofs.CharsP.
Import ListNotations.
Open Scope N_scope.

Lemma lex_word w : forallb is_wordc w = true -> forall s cur, lex (w ++ s) cur = lex s (rev w ++ cur).
Proof.
  induction w as [|c w IH]; simpl; intros H s cur; [reflexivity|].
  apply andb_true_iff in H. destruct H as [H1 H2]. rewrite H1, IH by assumption.
  rewrite <- app_assoc. reflexivity.
Qed.

Lemma lex_lpar s cur : lex (c_lpar :: s) cur = omap (fun ts => flush cur (TL :: ts)) (lex s []).
Proof. reflexivity. Qed.

Lemma lex_rpar s cur : lex (c_rpar :: s) cur = omap (fun ts => flush cur (TR :: ts)) (lex s []).
Proof. reflexivity. Qed.

Lemma omap_flush_nil (x : outcome (list tok)) : omap (flush []) x = x.
Proof. destruct x; reflexivity. Qed.

Lemma lex_flush c s cur : is_wordc c = false -> lex (c :: s) cur = omap (flush cur) (lex (c :: s) []).
Proof.
  simpl. intros ->.
  destruct (is_blank c); [|destruct (c =? c_lpar); [|destruct (c =? c_rpar); [|reflexivity]]];
    destruct (lex s []); reflexivity.
Qed.

Lemma blank_not_word c : is_blank c = true -> is_wordc c = false.
Proof.
  unfold is_blank. rewrite !orb_true_iff, !N.eqb_eq. intros [[[->| ->]| ->]| ->]; reflexivity.
Qed.

Lemma lex_blanks0 ws : forallb is_blank ws = true -> forall s, lex (ws ++ s) [] = lex s [].
Proof.
  induction ws as [|c ws IH]; simpl; intros H s; [reflexivity|].
  apply andb_true_iff in H. destruct H as [H1 H2].
  rewrite (blank_not_word _ H1), H1, IH by assumption. apply omap_flush_nil.
Qed.

(* blanks end the word being read; without a blank, whatever else ends it *)
Lemma lex_blanks ws s cur : forallb is_blank ws = true ->
  ws <> [] \/ lex s cur = omap (flush cur) (lex s []) ->
  lex (ws ++ s) cur = omap (flush cur) (lex s []).
Proof.
  intros Hb H. destruct ws as [|c ws]; [destruct H; [congruence|assumption]|].
  rewrite <- (lex_blanks0 _ Hb s). apply lex_flush, blank_not_word.
  apply andb_true_iff in Hb. apply Hb.
Qed.

Lemma flush_rev w ts : w <> [] -> flush (rev w) ts = TW w :: ts.
Proof.
  intros H. apply rev_nonnil in H. unfold flush. destruct (rev w) eqn:E; [congruence|].
  rewrite <- E, rev_involutive. reflexivity.
Qed.

(* a word being read (cur <> []) counts as the previous token: the layout has to be one for b = true, which
   puts a blank before a word that follows *)
Lemma lex_lay b ts s : Lay b ts s ->
  forall cur, (cur <> [] -> b = true) -> lex s cur = Ok (flush cur ts).
Proof.
  induction 1 as [b ws Hb | b ws w ts s Hb Hsep [Hw1 Hw2] _ IH | b ws ts s Hb _ IH | b ws ts s Hb _ IH];
    intros cur Hc.
  - rewrite <- (app_nil_r ws). apply lex_blanks; auto.
  - rewrite lex_blanks, lex_word, app_nil_r, IH, flush_rev; auto.
    destruct cur; [right; symmetry; apply omap_flush_nil | left; apply Hsep, Hc; discriminate].
  - rewrite lex_blanks by auto using lex_flush. rewrite lex_lpar, IH by congruence. reflexivity.
  - rewrite lex_blanks by auto using lex_flush. rewrite lex_rpar, IH by congruence. reflexivity.
Qed.

Theorem lex_layout ts s : Lay false ts s -> lex s [] = Ok ts.
Proof. intros H. apply (lex_lay _ _ _ H []). congruence. Qed.

Lemma lex_safe s : forall cur, safe (lex s cur).
Proof.
  induction s as [|x s IH]; intros cur; simpl; [exact I|].
  assert (O : forall g : list tok -> list tok, safe (omap g (lex s []))).
  { intros g. specialize (IH []). destruct (lex s []); exact IH. }
  destruct (is_wordc x); [apply IH|]. destruct (is_blank x); [apply O|].
  destruct (x =? c_lpar); [apply O|]. destruct (x =? c_rpar); [apply O|exact I].
Qed.

Lemma quant_of_qword q : quant_of (qword q) = Some q.
Proof. destruct q; reflexivity. Qed.

Lemma quant_of_inv w q : quant_of w = Some q -> w = qword q.
Proof.
  unfold quant_of.
  destruct (str_eqb w w_1) eqn:E1; [|destruct (str_eqb w w_any) eqn:E2; [|destruct (str_eqb w w_all) eqn:E3; [|discriminate]]];
    intros [= <-]; apply str_eqb_eq; assumption.
Qed.

Lemma sel_inv {A} (a_sel : quant -> str -> A) ts v r : sel a_sel ts = Some (v, r) ->
  exists q p c, v = a_sel q p /\ ts = TW (qword q) :: c ++ r /\
    (c = [TW w_of; TW p] /\ is_pat p = true \/
     exists p', p = c_star :: p' /\ c = [TW (w_of ++ p)] /\ forallb is_patc p' = true).
Proof.
  unfold sel. destruct ts as [|[q| |] [|[o| |] r0]]; try discriminate.
  destruct (quant_of q) as [qq|] eqn:Eq; [|discriminate]. apply quant_of_inv in Eq. subst q.
  destruct (str_eqb o w_of) eqn:Eo.
  - apply str_eqb_eq in Eo. subst o.
    destruct r0 as [|[p| |] r']; try discriminate. destruct (is_pat p) eqn:Ep; [|discriminate].
    intros [= <- <-]. exists qq, p, [TW w_of; TW p]. auto.
  - destruct o as [|c1 [|c2 [|c3 p']]]; try discriminate.
    destruct ((c1 =? 111) && (c2 =? 102) && (c3 =? c_star) && forallb is_patc p') eqn:E; [|discriminate].
    rewrite !andb_true_iff, !N.eqb_eq in E. destruct E as [[[-> ->] ->] Hp].
    intros [= <- <-]. exists qq, (c_star :: p'), [TW (w_of ++ c_star :: p')]. eauto 7.
Qed.

Section Fuel.
  Context {A : Type}.
  Variable a_id : str -> A.
  Variable a_sel : quant -> str -> A.
  Variable a_not : A -> A.
  Variable a_bin : bop -> list A -> A.
  Notation pe' := (pe a_id a_sel a_not a_bin).
  Notation loop' := (loop a_id a_sel a_not a_bin).

  (* one step of the mutual fixpoint, to rewrite with: simpl would open the nested calls as well *)
  Lemma pe_S f i ts : pe' (S f) i ts =
    match i with
    | 0%nat =>
        match sel a_sel ts with
        | Some x => Done x
        | None =>
            match ts with
            | TW w :: r => if is_ident w then Done (a_id w, r) else Fail
            | TL :: r =>
                match pe' f 3 r with
                | Done (v, TR :: r') => Done (v, r')
                | Done _ => Fail
                | Fail => Fail
                | OutOfFuel => OutOfFuel
                end
            | _ => Fail
            end
        end
    | 1%nat =>
        match ts with
        | TW w :: r =>
            if str_eqb w w_not then
              match pe' f 1 r with
              | Done (v, r') => Done (a_not v, r')
              | Fail => pe' f 0 ts
              | OutOfFuel => OutOfFuel
              end
            else pe' f 0 ts
        | _ => pe' f 0 ts
        end
    | S k =>
        match pe' f k ts with
        | Done (v, r) => loop' f (lvl_op k) k [v] r
        | Fail => Fail
        | OutOfFuel => OutOfFuel
        end
    end.
  Proof. reflexivity. Qed.

  Lemma loop_S f o k acc r : loop' (S f) o k acc r =
    match r with
    | TW w :: r' =>
        if str_eqb w (opw o) then
          match pe' f k r' with
          | Done (v', r'') => loop' f o k (v' :: acc) r''
          | Fail => Done (fin a_bin o (rev acc), r)
          | OutOfFuel => OutOfFuel
          end
        else Done (fin a_bin o (rev acc), r)
    | _ => Done (fin a_bin o (rev acc), r)
    end.
  Proof. reflexivity. Qed.

  Lemma fuel_mono : forall f,
    (forall i ts f', (f <= f')%nat -> pe' f i ts = OutOfFuel \/ pe' f' i ts = pe' f i ts) /\
    (forall o k acc r f', (f <= f')%nat -> loop' f o k acc r = OutOfFuel \/ loop' f' o k acc r = loop' f o k acc r).
  Proof.
    induction f as [|f [IHp IHl]]; split; intros; try (left; reflexivity).
    all: destruct f' as [|f']; [lia|]; apply le_S_n in H.
    - rewrite !pe_S. destruct i as [|[|k]].
      + destruct (sel a_sel ts); [right; reflexivity|]. destruct ts as [|[w| |] r]; try (right; reflexivity).
        destruct (IHp 3%nat r f' H) as [E|E]; rewrite E; [left|right]; reflexivity.
      + destruct ts as [|[w| |] r]; auto. destruct (str_eqb w w_not); auto.
        destruct (IHp 1%nat r f' H) as [E|E]; rewrite E; [left; reflexivity|].
        destruct (pe' f 1 r) as [[v r']| |]; auto.
      + destruct (IHp (S k) ts f' H) as [E|E]; rewrite E; [left; reflexivity|].
        destruct (pe' f (S k) ts) as [[v r]| |]; auto.
    - rewrite !loop_S. destruct r as [|[w| |] r']; try (right; reflexivity).
      destruct (str_eqb w (opw o)); [|right; reflexivity].
      destruct (IHp k r' f' H) as [E|E]; rewrite E; [left; reflexivity|].
      destruct (pe' f k r') as [[v' r'']| |]; auto.
  Qed.

  Lemma pe_mono f f' i ts x : pe' f i ts = Done x -> (f <= f')%nat -> pe' f' i ts = Done x.
  Proof. intros H Hle. destruct (proj1 (fuel_mono f) i ts f' Hle); congruence. Qed.
  Lemma loop_mono f f' o k acc r x : loop' f o k acc r = Done x -> (f <= f')%nat -> loop' f' o k acc r = Done x.
  Proof. intros H Hle. destruct (proj2 (fuel_mono f) o k acc r f' Hle); congruence. Qed.

  Definition within (n : nat) (x : pres (A * list tok)) : Prop :=
    match x with Done (_, r) => (length r < n)%nat | Fail => True | OutOfFuel => False end.

  Lemma within_le n m x : within n x -> (n <= m)%nat -> within m x.
  Proof. destruct x as [[v r]| |]; simpl; auto. lia. Qed.

  (* the measure: i + 1 steps to come down from level i, and four more (one per level) for every token *)
  Lemma fuel_adequate : forall f,
    (forall i ts, (i <= 3)%nat -> (4 * length ts + i + 1 <= f)%nat -> within (length ts) (pe' f i ts)) /\
    (forall o k acc r, (k <= 2)%nat -> (4 * length r + 4 <= f)%nat -> within (S (length r)) (loop' f o k acc r)).
  Proof.
    induction f as [|f [IHp IHl]]; split; intros; try lia.
    - rewrite pe_S. destruct i as [|[|k]].
      + destruct (sel a_sel ts) as [[v r]|] eqn:Es.
        { apply sel_inv in Es. destruct Es as (q & p & c & _ & -> & _). simpl. rewrite app_length. lia. }
        destruct ts as [|[w| |] r]; try exact I; [destruct (is_ident w); simpl; auto|].
        simpl length in *. assert (P : within (length r) (pe' f 3 r)) by (apply IHp; lia).
        destruct (pe' f 3 r) as [[v [|[w| |] r']]| |]; cbn [within length] in *; auto; lia.
      + assert (B : within (length ts) (pe' f 0 ts)) by (apply IHp; lia).
        destruct ts as [|[w| |] r]; try exact B. destruct (str_eqb w w_not); [|exact B].
        simpl length in *. assert (P : within (length r) (pe' f 1 r)) by (apply IHp; lia).
        destruct (pe' f 1 r) as [[v r']| |]; cbn [within] in *; [lia | exact B | exact P].
      + assert (P : within (length ts) (pe' f (S k) ts)) by (apply IHp; lia).
        destruct (pe' f (S k) ts) as [[v r]| |]; cbn [within] in *; auto.
        apply (within_le (S (length r))); [apply IHl|]; lia.
    - rewrite loop_S. destruct r as [|[w| |] r']; simpl; try lia.
      destruct (str_eqb w (opw o)); simpl; [|lia].
      simpl length in *. assert (P : within (length r') (pe' f k r')) by (apply IHp; lia).
      destruct (pe' f k r') as [[v' r'']| |]; cbn [within] in *; auto.
      apply (within_le (S (length r''))); [apply IHl|]; lia.
  Qed.

  Lemma fuel_for_enough ts : pe' (fuel_for ts) 3 ts <> OutOfFuel.
  Proof.
    intros E. pose proof (proj1 (fuel_adequate (fuel_for ts)) 3%nat ts) as P. rewrite E in P.
    apply P; unfold fuel_for; lia.
  Qed.

  Lemma parse_toks_fuel ts : parse_toks a_id a_sel a_not a_bin ts <> OutOfFuel.
  Proof.
    unfold parse_toks. pose proof (fuel_for_enough ts).
    destruct (pe' (fuel_for ts) 3 ts) as [[v [|t r]]| |]; congruence.
  Qed.

  Lemma parse_toks_Done ts v :
    parse_toks a_id a_sel a_not a_bin ts = Done v <-> exists f, pe' f 3 ts = Done (v, []).
  Proof.
    unfold parse_toks. split.
    - intros H. exists (fuel_for ts).
      destruct (pe' (fuel_for ts) 3 ts) as [[v' [|t r]]| |]; try discriminate. injection H as <-. reflexivity.
    - intros [f H].
      destruct (proj1 (fuel_mono _) 3%nat ts _ (Nat.le_max_r f (fuel_for ts))) as [E|E]; [elim (fuel_for_enough ts E)|].
      rewrite <- E, (pe_mono _ _ _ _ _ H (Nat.le_max_l _ _)). reflexivity.
  Qed.
End Fuel.

(* The parser is run in an arbitrary algebra (A, a_id, a_sel, a_not, a_bin); foldt folds a parse
   tree with its n-ary nodes, folde folds an expression with the binary operation e_bin. *)
Section Fold.
  Context {A : Type}.
  Variable a_id : str -> A.
  Variable a_sel : quant -> str -> A.
  Variable a_not : A -> A.
  Variable a_bin : bop -> list A -> A.
  Variable e_bin : bop -> A -> A -> A.

  Fixpoint foldt (t : ptree) : A :=
    match t with
    | PId n => a_id n
    | PSel q p => a_sel q p
    | PNot a => a_not (foldt a)
    | PAnd l => a_bin BAnd (map foldt l)
    | POr l => a_bin BOr (map foldt l)
    end.

  Fixpoint folde (e : expr) : A :=
    match e with
    | EId n => a_id n
    | ESel q p => a_sel q p
    | ENot a => a_not (folde a)
    | EAnd a b => e_bin BAnd (folde a) (folde b)
    | EOr a b => e_bin BOr (folde a) (folde b)
    end.
End Fold.

Section Hom.
  Context {A : Type}.
  Variable a_id : str -> A.
  Variable a_sel : quant -> str -> A.
  Variable a_not : A -> A.
  Variable a_bin : bop -> list A -> A.
  Notation pet := (pe PId PSel PNot t_bin).
  Notation loopt := (loop PId PSel PNot t_bin).
  Notation pea := (pe a_id a_sel a_not a_bin).
  Notation loopa := (loop a_id a_sel a_not a_bin).
  Notation h := (foldt a_id a_sel a_not a_bin).

  Definition mapres (x : pres (ptree * list tok)) : pres (A * list tok) :=
    match x with Done (v, r) => Done (h v, r) | Fail => Fail | OutOfFuel => OutOfFuel end.

  Lemma bin_hom o l : h (t_bin o l) = a_bin o (map h l).
  Proof. destruct o; reflexivity. Qed.

  Lemma fin_hom o l : h (fin t_bin o l) = fin a_bin o (map h l).
  Proof.
    destruct l as [|x [|y l]]; cbn [fin map]; try reflexivity; apply bin_hom.
  Qed.

  Lemma sel_hom ts :
    sel a_sel ts = match sel PSel ts with Some (v, r) => Some (h v, r) | None => None end.
  Proof.
    unfold sel. destruct ts as [|[q| |] [|[o| |] r0]]; try reflexivity.
    destruct (quant_of q); [|reflexivity].
    destruct (str_eqb o w_of).
    - destruct r0 as [|[p| |] r']; try reflexivity. destruct (is_pat p); reflexivity.
    - destruct o as [|c1 [|c2 [|c3 p']]]; try reflexivity.
      destruct ((c1 =? 111) && (c2 =? 102) && (c3 =? c_star) && forallb is_patc p'); reflexivity.
  Qed.

  Lemma pe_hom : forall f,
    (forall i ts, pea f i ts = mapres (pet f i ts)) /\
    (forall o k acc r, loopa f o k (map h acc) r = mapres (loopt f o k acc r)).
  Proof.
    induction f as [|f [IHp IHl]]; split; intros; try reflexivity.
    - rewrite !pe_S. destruct i as [|[|k]].
      + rewrite sel_hom. destruct (sel PSel ts) as [[v r]|]; [reflexivity|].
        destruct ts as [|[w| |] r]; try reflexivity.
        * destruct (is_ident w); reflexivity.
        * rewrite IHp. destruct (pet f 3 r) as [[v [|[w| |] r']]| |]; reflexivity.
      + destruct ts as [|[w| |] r]; try apply IHp.
        destruct (str_eqb w w_not); [|apply IHp].
        rewrite IHp. destruct (pet f 1 r) as [[v r']| |]; try reflexivity. apply IHp.
      + rewrite IHp. destruct (pet f (S k) ts) as [[v r]| |]; try reflexivity.
        apply (IHl (lvl_op (S k)) (S k) [v] r).
    - rewrite !loop_S. rewrite <- map_rev, <- fin_hom.
      destruct r as [|[w| |] r']; try reflexivity.
      destruct (str_eqb w (opw o)); [|reflexivity].
      rewrite IHp. destruct (pet f k r') as [[v' r'']| |]; try reflexivity.
      apply (IHl o k (v' :: acc) r'').
  Qed.
End Hom.

(* Completeness, by induction on the derivation of the spelling. An expression of level k is an Operand:
   parsed at level k whatever follows, provided level k may stop there. A left-nested chain of AND (OR)
   is an OpSeq, consumed by one run of loop; the laws turn its n-ary value into the nested binary one. *)
Section Complete.
  Context {A : Type}.
  Variable vid : str -> A.
  Variable vsel : quant -> str -> A.
  Variable negb : A -> A.
  Variable b_bin : bop -> list A -> A.
  Variable e_bin : bop -> A -> A -> A.
  Hypothesis law1 : forall o x, b_bin o [x] = x.
  Hypothesis law2 : forall o l v, l <> [] -> b_bin o (l ++ [v]) = e_bin o (b_bin o l) v.
  Notation peb := (pe vid vsel negb b_bin).
  Notation loopb := (loop vid vsel negb b_bin).
  Notation selb := (sel vsel).
  Notation sm := (folde vid vsel negb e_bin).

  Definition PE (i : nat) (ts : list tok) (v : A) (r : list tok) : Prop :=
    exists f, peb f i ts = Done (v, r).
  Definition LOOP (o : bop) (k : nat) (acc : list A) (r : list tok) (v : A) (r' : list tok) : Prop :=
    exists f, loopb f o k acc r = Done (v, r').

  Definition hd_word (w : str) (ts : list tok) : Prop :=
    match ts with TW x :: _ => x = w | _ => False end.

  Lemma fin_b o l : fin b_bin o l = b_bin o l.
  Proof. destruct l as [|x [|y l]]; try reflexivity. cbn [fin]. symmetry. apply law1. Qed.

  (* what may follow an expression of level i: the end, a ')', or an operator that binds more loosely *)
  Definition stops (i : nat) (rest : list tok) : Prop :=
    match rest with
    | [] => True
    | TR :: _ => True
    | TW w :: _ => (w = w_and /\ (i < 2)%nat) \/ (w = w_or /\ (i < 3)%nat)
    | TL :: _ => False
    end.

  Lemma stops_le i j r : stops i r -> (j <= i)%nat -> stops j r.
  Proof. destruct r as [|[w| |] r]; simpl; auto. intros [[? ?]|[? ?]] ?; [left|right]; split; auto; lia. Qed.

  Lemma sel_none_stops n rest : stops 0 rest -> selb (TW n :: rest) = None.
  Proof.
    destruct rest as [|[w| |] r]; simpl; try reflexivity; try contradiction.
    intros [[-> _]|[-> _]]; destruct (quant_of n); reflexivity.
  Qed.

  (* o is the operator whose operands are parsed at level k: o = lvl_op k and 1 <= k <= 2 *)
  Definition lvl_ok (o : bop) (k : nat) : Prop := (o = BAnd /\ k = 1%nat) \/ (o = BOr /\ k = 2%nat).

  Lemma lvl_ok_lvl_op k : (1 <= k <= 2)%nat -> lvl_ok (lvl_op k) k.
  Proof. destruct k as [|[|[|k]]]; [lia | left | right | lia]; auto. Qed.

  Lemma lvl_ok_op o k : lvl_ok o k -> lvl_op k = o /\ exists k', k = S k'.
  Proof. intros [[-> ->]|[-> ->]]; split; eauto. Qed.

  Lemma stops_op o k r : lvl_ok o k -> stops k (TW (opw o) :: r).
  Proof. intros [[-> ->]|[-> ->]]; simpl; [left|right]; split; auto. Qed.

  Lemma stops_not_hd o k rest : lvl_ok o k -> stops (S k) rest -> ~ hd_word (opw o) rest.
  Proof.
    intros Hl Hs. destruct rest as [|[w| |] r]; simpl in *; auto. intros ->.
    destruct Hl as [[-> ->]|[-> ->]]; simpl in Hs; destruct Hs as [[E ?]|[E ?]]; try lia; discriminate E.
  Qed.

  Lemma PE_01 ts v r : PE 0 ts v r -> ~ hd_word w_not ts -> PE 1 ts v r.
  Proof.
    intros [f H] Hh. exists (S f). rewrite pe_S. destruct ts as [|[w| |] r0]; auto.
    rewrite str_eqb_neq; auto.
  Qed.

  Lemma PE_bin k ts v r v' r' : PE (S k) ts v r -> LOOP (lvl_op (S k)) (S k) [v] r v' r' -> PE (S (S k)) ts v' r'.
  Proof.
    intros [f1 H1] [f2 H2]. exists (S (f1 + f2)). rewrite pe_S.
    rewrite (pe_mono _ _ _ _ _ (f1 + f2)%nat _ _ _ H1) by lia.
    apply (loop_mono _ _ _ _ _ (f1 + f2)%nat _ _ _ _ _ H2). lia.
  Qed.

  Lemma LOOP_stop o k acc r : ~ hd_word (opw o) r -> LOOP o k acc r (fin b_bin o (rev acc)) r.
  Proof.
    intros Hh. exists 1%nat. rewrite loop_S. destruct r as [|[w| |] r']; auto.
    rewrite str_eqb_neq; auto.
  Qed.

  Lemma LOOP_step o k acc r1 v1 r2 v r' :
    PE k r1 v1 r2 -> LOOP o k (v1 :: acc) r2 v r' -> LOOP o k acc (TW (opw o) :: r1) v r'.
  Proof.
    intros [f1 H1] [f2 H2]. exists (S (f1 + f2)). rewrite loop_S, str_eqb_refl.
    rewrite (pe_mono _ _ _ _ _ (f1 + f2)%nat _ _ _ H1) by lia.
    apply (loop_mono _ _ _ _ _ (f1 + f2)%nat _ _ _ _ _ H2). lia.
  Qed.

  Lemma lift1 k ts v rest : PE k ts v rest -> (k < 3)%nat -> stops (S k) rest ->
    (k = 0%nat -> ~ hd_word w_not ts) -> PE (S k) ts v rest.
  Proof.
    intros H Hk Hs Hh. destruct k as [|k]; [apply PE_01; auto|].
    eapply PE_bin; [exact H|]. apply LOOP_stop.
    apply (stops_not_hd _ (S k)); [apply lvl_ok_lvl_op; lia | exact Hs].
  Qed.

  Definition Operand (k : nat) (ts : list tok) (v : A) : Prop :=
    forall rest, stops k rest -> PE k (ts ++ rest) v rest.

  Lemma Operand_lift j ts v : Operand j ts v -> (j = 0%nat -> forall rest, ~ hd_word w_not (ts ++ rest)) ->
    forall i rest, (j <= i <= 3)%nat -> stops i rest -> PE i (ts ++ rest) v rest.
  Proof.
    intros H Hh i rest [Hji Hi]. revert rest. induction Hji as [|m Hjm IH]; intros rest Hs; [exact (H rest Hs)|].
    apply lift1; [apply IH; [lia | eapply stops_le; eauto] | lia | exact Hs | intros ->; apply Hh; lia].
  Qed.

  Lemma Operand_id n : is_ident n = true -> Operand 0 [TW n] (vid n).
  Proof.
    intros Hn rest Hs. exists 1%nat. cbn [app]. rewrite pe_S, (sel_none_stops _ _ Hs), Hn. reflexivity.
  Qed.

  Lemma Operand_sel q p : is_pat p = true -> Operand 0 [TW (qword q); TW w_of; TW p] (vsel q p).
  Proof.
    intros Hp rest _. exists 1%nat. rewrite pe_S. cbn [app sel].
    rewrite quant_of_qword, str_eqb_refl, Hp. reflexivity.
  Qed.

  Lemma Operand_par ts v : Operand 3 ts v -> Operand 0 (TL :: ts ++ [TR]) v.
  Proof.
    intros H rest _. destruct (H (TR :: rest) I) as [f Hf]. exists (S f).
    cbn [app]. rewrite <- app_assoc, pe_S. cbn [app sel]. rewrite Hf. reflexivity.
  Qed.

  Lemma Operand_not ts v : Operand 1 ts v -> Operand 1 (TW w_not :: ts) (negb v).
  Proof.
    intros H rest Hs. destruct (H rest Hs) as [f Hf]. exists (S f).
    cbn [app]. rewrite pe_S, str_eqb_refl, Hf. reflexivity.
  Qed.

  Inductive OpSeq (o : bop) (k : nat) : list tok -> list A -> Prop :=
  | os1 ts v : Operand k ts v -> OpSeq o k ts [v]
  | osS ts v ts' l : Operand k ts v -> OpSeq o k ts' l ->
      OpSeq o k (ts ++ TW (opw o) :: ts') (v :: l).

  Lemma OpSeq_loop o k ts l : OpSeq o k ts l -> lvl_ok o k ->
    forall acc rest, stops (S k) rest ->
    LOOP o k acc (TW (opw o) :: ts ++ rest) (fin b_bin o (rev acc ++ l)) rest.
  Proof.
    induction 1 as [ts v Hop | ts v ts' l Hop Hs IH]; intros Hl acc rest Hst.
    - eapply LOOP_step.
      + apply Hop. eapply stops_le; eauto.
      + apply (LOOP_stop o k (v :: acc) rest). eapply stops_not_hd; eauto.
    - rewrite <- app_assoc. cbn [app]. eapply LOOP_step.
      + apply Hop. apply stops_op. exact Hl.
      + specialize (IH Hl (v :: acc) rest Hst). cbn [rev] in IH. rewrite <- app_assoc in IH. exact IH.
  Qed.

  Lemma OpSeq_head o k ts l : OpSeq o k ts l -> lvl_ok o k -> Operand (S k) ts (b_bin o l).
  Proof.
    intros H Hl rest Hst. destruct (lvl_ok_op _ _ Hl) as [Eo [k' ->]]. rewrite <- fin_b.
    destruct H as [ts v Hop | ts v ts' l Hop Hs].
    - eapply PE_bin.
      + apply Hop. eapply stops_le; eauto.
      + rewrite Eo. apply (LOOP_stop o (S k') [v] rest). eapply stops_not_hd; eauto.
    - rewrite <- app_assoc. cbn [app]. eapply PE_bin.
      + apply Hop. apply stops_op. exact Hl.
      + rewrite Eo. apply (OpSeq_loop _ _ _ _ Hs Hl [v] rest Hst).
  Qed.

  Lemma OpSeq_snoc o k ts l ts2 v : OpSeq o k ts l -> Operand k ts2 v ->
    OpSeq o k (ts ++ TW (opw o) :: ts2) (l ++ [v]).
  Proof.
    induction 1 as [ts0 v0 Hop | ts0 v0 ts' l Hop Hs IH]; intros H2.
    - apply osS; [exact Hop|]. apply os1. exact H2.
    - rewrite <- app_assoc. cbn [app]. apply osS; [exact Hop|]. apply IH. exact H2.
  Qed.

  Lemma OpSeq_ne o k ts l : OpSeq o k ts l -> l <> [].
  Proof. destruct 1; discriminate. Qed.

  Lemma OpSeq_bin o k ts1 ts2 l v : lvl_ok o k -> OpSeq o k ts1 l -> Operand k ts2 v ->
    (forall j rest, (S k <= j <= 3)%nat -> stops j rest ->
       PE j ((ts1 ++ TW (opw o) :: ts2) ++ rest) (e_bin o (b_bin o l) v) rest) /\
    exists l', OpSeq o k (ts1 ++ TW (opw o) :: ts2) l' /\ b_bin o l' = e_bin o (b_bin o l) v.
  Proof.
    intros Hl Hs Ho. pose proof (OpSeq_snoc _ _ _ _ _ _ Hs Ho) as Hs'.
    rewrite <- (law2 o l v (OpSeq_ne _ _ _ _ Hs)). split; [|eauto].
    apply Operand_lift; [apply OpSeq_head; assumption | discriminate].
  Qed.

  (* e is parsed at every level from i up; at the level of AND (OR) its tokens are moreover a sequence of
     operands, so that an 'and' ('or') that follows continues the same run of loop *)
  Lemma main i ts e : SpellsT i ts e -> wf_expr e = true ->
    (forall j rest, (i <= j <= 3)%nat -> stops j rest -> PE j (ts ++ rest) (sm e) rest) /\
    (i = 2%nat -> exists l, OpSeq BAnd 1 ts l /\ b_bin BAnd l = sm e) /\
    (i = 3%nat -> exists l, OpSeq BOr 2 ts l /\ b_bin BOr l = sm e).
  Proof.
    induction 1 as [n | q p | ts e H IH | ts e H IH | ts1 ts2 a b Ha IHa Hb IHb
                    | ts1 ts2 a b Ha IHa Hb IHb | i ts e H IH]; cbn [wf_expr folde]; intros Hw.
    - apply andb_true_iff in Hw. destruct Hw as [Hid Hres].
      split; [|split; discriminate]. apply Operand_lift; [apply Operand_id, Hid|].
      intros _ rest Hh. simpl in Hh. subst n. discriminate Hres.
    - split; [|split; discriminate]. apply Operand_lift; [apply Operand_sel, Hw|].
      intros _ rest Hh. destruct q; discriminate Hh.
    - destruct (IH Hw) as [P _]. split; [|split; discriminate]. apply Operand_lift.
      + apply Operand_par. intros rest. apply P. lia.
      + intros _ rest Hh. exact Hh.
    - destruct (IH Hw) as [P _]. split; [|split; discriminate]. apply Operand_lift; [|discriminate].
      apply Operand_not. intros rest. apply P. lia.
    - apply andb_true_iff in Hw. destruct Hw as [Hwa Hwb].
      destruct (IHa Hwa) as (_ & Sa & _). destruct (Sa eq_refl) as (l & Hl & <-). destruct (IHb Hwb) as [Pb _].
      destruct (OpSeq_bin BAnd 1 ts1 ts2 l (sm b)) as [P S]; [left; auto | exact Hl | intros rest; apply Pb; lia|].
      split; [exact P | split; [intros _; exact S | discriminate]].
    - apply andb_true_iff in Hw. destruct Hw as [Hwa Hwb].
      destruct (IHa Hwa) as (_ & _ & Sa). destruct (Sa eq_refl) as (l & Hl & <-). destruct (IHb Hwb) as [Pb _].
      destruct (OpSeq_bin BOr 2 ts1 ts2 l (sm b)) as [P S]; [right; auto | exact Hl | intros rest; apply Pb; lia|].
      split; [exact P | split; [discriminate | intros _; exact S]].
    - (* a tighter expression used at a looser level: a sequence of one operand *)
      destruct (IH Hw) as [P _]. split; [intros j rest Hj; apply P; lia|].
      split; intros [= ->]; exists [sm e]; (split; [apply os1; intros rest; apply P; lia | apply law1]).
  Qed.

  Theorem pe_complete ts e : SpellsT 3 ts e -> wf_expr e = true -> PE 3 ts (sm e) [].
  Proof.
    intros H Hw. destruct (main _ _ _ H Hw) as [P _].
    specialize (P 3%nat [] (conj (le_n _) (le_n _)) I). rewrite app_nil_r in P. exact P.
  Qed.
End Complete.

(* an algebra is lawful when its n-ary nodes agree with a binary operation *)
Definition lawful {A} (a_bin : bop -> list A -> A) (e_bin : bop -> A -> A -> A) : Prop :=
  (forall o x, a_bin o [x] = x) /\ (forall o l v, l <> [] -> a_bin o (l ++ [v]) = e_bin o (a_bin o l) v).

(* t and e have the same value in every lawful algebra: t is e up to the flattening of runs of one operator *)
Definition same_folds (t : ptree) (e : expr) : Prop :=
  forall A a_id a_sel a_not a_bin e_bin, @lawful A a_bin e_bin ->
    foldt a_id a_sel a_not a_bin t = folde a_id a_sel a_not e_bin e.

Definition bool_bin (o : bop) (l : list bool) : bool :=
  match o with BAnd => forallb (fun b => b) l | BOr => existsb (fun b => b) l end.
Definition b_op (o : bop) (a b : bool) : bool := match o with BAnd => a && b | BOr => a || b end.

Lemma lawful_bool : lawful bool_bin b_op.
Proof.
  split.
  - intros [] x; simpl; [apply andb_true_r | apply orb_false_r].
  - intros [] l v _; simpl.
    + rewrite forallb_app. simpl. rewrite andb_true_r. reflexivity.
    + rewrite existsb_app. simpl. rewrite orb_false_r. reflexivity.
Qed.

Lemma tree_of_spelling_fold {A} a_id a_sel a_not a_bin e_bin ts e :
  @lawful A a_bin e_bin -> SpellsT 3 ts e -> wf_expr e = true ->
  exists t, parse_tree ts = Done t /\ foldt a_id a_sel a_not a_bin t = folde a_id a_sel a_not e_bin e.
Proof.
  intros [L1 L2] H Hw.
  destruct (pe_complete a_id a_sel a_not a_bin e_bin L1 L2 ts e H Hw) as [f Hf].
  rewrite (proj1 (pe_hom a_id a_sel a_not a_bin f)) in Hf.
  destruct (pe PId PSel PNot t_bin f 3 ts) as [[t r]| |] eqn:E; try discriminate.
  injection Hf as <- ->. exists t. split; [|reflexivity].
  apply parse_toks_Done. exists f. exact E.
Qed.

Lemma parse_Ok s t : parse s = Ok t <-> exists ts, lex s [] = Ok ts /\ parse_tree ts = Done t.
Proof.
  unfold parse. split.
  - destruct (lex s []) as [ts| |]; try discriminate. destruct (parse_tree ts) as [t'| |] eqn:E; try discriminate.
    intros [= ->]. eauto.
  - intros (ts & -> & ->). reflexivity.
Qed.

Theorem parse_complete_fold e s : wf_expr e = true -> Spells s e ->
  exists t, parse s = Ok t /\ same_folds t e.
Proof.
  intros Hw [ts [HL HS]].
  (* the constant algebra of booleans is only there to obtain the tree t; any lawful algebra would do *)
  destruct (tree_of_spelling_fold (fun _ => true) (fun _ _ => true) negb _ _ ts e lawful_bool HS Hw) as [t [Ht _]].
  exists t. split.
  - apply parse_Ok. exists ts. split; [apply lex_layout, HL | exact Ht].
  - intros A a_id a_sel a_not a_bin e_bin L.
    destruct (tree_of_spelling_fold a_id a_sel a_not a_bin e_bin ts e L HS Hw) as [t' [Ht' Hd]].
    rewrite Ht in Ht'. injection Ht' as <-. exact Hd.
Qed.

Section PtreeInd.
  Variable P : ptree -> Prop.
  Hypothesis Hid : forall n, P (PId n).
  Hypothesis Hsel : forall q p, P (PSel q p).
  Hypothesis Hnot : forall a, P a -> P (PNot a).
  Hypothesis Hbin : forall o l, Forall P l -> P (t_bin o l).
  Fixpoint ptree_bin_ind (t : ptree) : P t :=
    let all := fix all l : Forall P l :=
      match l with [] => Forall_nil P | x :: r => Forall_cons x (ptree_bin_ind x) (all r) end in
    match t with
    | PId n => Hid n
    | PSel q p => Hsel q p
    | PNot a => Hnot a (ptree_bin_ind a)
    | PAnd l => Hbin BAnd l (all l)
    | POr l => Hbin BOr l (all l)
    end.
End PtreeInd.

Lemma denv_bin vid vsel o l : denv vid vsel (t_bin o l) = bool_bin o (map (denv vid vsel) l).
Proof. destruct o; simpl; symmetry; [apply forallb_map_id | apply existsb_map_id]. Qed.

Lemma denv_foldt vid vsel t : denv vid vsel t = foldt vid vsel negb bool_bin t.
Proof.
  induction t as [n|q p|a IH|o l IH] using ptree_bin_ind; try reflexivity.
  - simpl. rewrite IH. reflexivity.
  - rewrite denv_bin, bin_hom. f_equal. apply map_ext_Forall, IH.
Qed.

Lemma semv_folde vid vsel e : semv vid vsel e = folde vid vsel negb b_op e.
Proof. induction e; simpl; congruence. Qed.

Lemma fold_denv t e : same_folds t e -> forall vid vsel, denv vid vsel t = semv vid vsel e.
Proof. intros Hf vid vsel. rewrite denv_foldt, semv_folde. apply Hf, lawful_bool. Qed.

Theorem parse_complete e s : wf_expr e = true -> Spells s e ->
  exists t, parse s = Ok t /\ forall vid vsel, denv vid vsel t = semv vid vsel e.
Proof.
  intros Hw HS. destruct (parse_complete_fold e s Hw HS) as [t [Ht Hf]].
  exists t. split; [exact Ht | exact (fold_denv t e Hf)].
Qed.

Theorem parse_safe s : safe (parse s).
Proof.
  unfold parse, parse_tree. pose proof (lex_safe s []) as L.
  destruct (lex s []) as [ts|c|c]; [|exact L..].
  pose proof (parse_toks_fuel PId PSel PNot t_bin ts) as N.
  destruct (parse_toks PId PSel PNot t_bin ts); [exact I | exact I | exact (N eq_refl)].
Qed.

Theorem parse_never_out_of_fuel s : parse s <> Crash E_Fuel.
Proof. apply safe_no_crash, parse_safe. Qed.
