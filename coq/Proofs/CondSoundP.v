(* C02 - "no junk accepted": whatever the model parser accepts is a (lenient) spelling of an
   expression with the same meaning as the returned tree; and a text spells at most one well-formed
   expression. *)
From Coq Require Import NArith List Bool Arith Lia.
From PS Require Import Base.Chars Base.Outcome Model.CondParse Spec.CondGrammar Proofs.CharsP Proofs.CondParseP Proofs.OutcomeP.
Import ListNotations.
Open Scope N_scope.

Lemma lay_blank_cons b b' ts s c : Lay b ts s -> is_blank c = true -> Lay b' ts (c :: s).
Proof.
  intros H Hc.
  destruct H; [apply lay_nil | apply (lay_word b' (c :: ws)) | apply (lay_lpar b' (c :: ws)) | apply (lay_rpar b' (c :: ws))];
    unfold blanks in *; simpl; rewrite ?Hc; easy.
Qed.

Lemma lay_any_false b ts s : Lay b ts s -> Lay false ts s.
Proof. destruct 1; constructor; easy. Qed.

Lemma lay_pending cur ts s :
  forallb is_wordc cur = true -> Lay true ts s -> Lay false (flush cur ts) (rev cur ++ s).
Proof.
  intros Hc H. destruct cur as [|x cur]; [exact (lay_any_false _ _ _ H)|].
  apply (lay_word false [] (rev (x :: cur)) ts s); try easy. split.
  - apply rev_nonnil. discriminate.
  - rewrite forallb_forall in *. intros y Hy. apply Hc, in_rev, Hy.
Qed.

Lemma lex_sound_gen s : forall cur ts',
  forallb is_wordc cur = true -> lex s cur = Ok ts' -> Lay false ts' (rev cur ++ s).
Proof.
  induction s as [|c r IH]; intros cur ts' Hc H; simpl in H.
  - injection H as <-. apply lay_pending; auto. apply (lay_nil true []). reflexivity.
  - destruct (is_wordc c) eqn:Ew.
    { specialize (IH (c :: cur) ts'). simpl in IH. rewrite <- app_assoc in IH. apply IH; auto.
      rewrite Ew. exact Hc. }
    assert (R : forall ts0, lex r [] = Ok ts0 -> Lay false ts0 r) by (intros ts0; apply (IH []); reflexivity).
    (* omap g x is obind x (fun a => Ok (g a)) by conversion *)
    destruct (is_blank c) eqn:Eb; [|destruct (c =? c_lpar) eqn:El; [|destruct (c =? c_rpar) eqn:Er; [|discriminate]]];
      apply obind_ok in H as (ts0 & E0 & [= <-]); apply lay_pending; auto.
    + eapply lay_blank_cons; eauto.
    + apply N.eqb_eq in El. subst c. apply (lay_lpar true []); [reflexivity | auto].
    + apply N.eqb_eq in Er. subst c. apply (lay_rpar true []); [reflexivity | auto].
Qed.

Theorem lex_sound s ts : lex s [] = Ok ts -> Lay false ts s.
Proof. intros H. apply (lex_sound_gen s [] ts); auto. Qed.

Local Notation pet := (pe PId PSel PNot t_bin).
Local Notation loopt := (loop PId PSel PNot t_bin).

Definition expr_bin (o : bop) (a b : expr) : expr := match o with BAnd => EAnd a b | BOr => EOr a b end.

(* The expressions are themselves a lawful algebra, an n-ary node being the left-nested chain of its arguments,
   which is how unflat reads one; folding an expression into it gives the expression back. *)
Definition e_flat (o : bop) (l : list expr) : expr :=
  match l with [] => EId [] | x :: r => fold_left (expr_bin o) r x end.

Lemma lawful_flat : lawful e_flat expr_bin.
Proof. split; [reflexivity|]. intros o [|x l] v H; [congruence|]. apply fold_left_app. Qed.

Lemma folde_expr e : folde EId ESel ENot expr_bin e = e.
Proof. induction e; simpl; congruence. Qed.

Lemma fold_left_map {X Y Z} (f : X -> Z -> X) (g : Y -> Z) l a :
  fold_left f (map g l) a = fold_left (fun a y => f a (g y)) l a.
Proof. revert a. induction l; simpl; auto. Qed.

Lemma unflat_bin o l : unflat (t_bin o l) = e_flat o (map unflat l).
Proof. destruct o, l; try reflexivity; symmetry; apply fold_left_map. Qed.

Lemma unflat_fin o l : l <> [] -> unflat (fin t_bin o l) = e_flat o (map unflat l).
Proof. destruct l as [|x [|y l]]; [congruence | reflexivity | intros _; apply unflat_bin]. Qed.

Lemma unflat_snoc o l t' : l <> [] ->
  unflat (fin t_bin o (l ++ [t'])) = expr_bin o (unflat (fin t_bin o l)) (unflat t').
Proof.
  intros Hl. rewrite !unflat_fin, map_app by (destruct l; simpl; congruence).
  apply lawful_flat. destruct l; simpl; congruence.
Qed.

Lemma sel_sound ts t r : sel PSel ts = Some (t, r) ->
  exists c, ts = c ++ r /\ SpellsL 0 c (unflat t).
Proof.
  intros H. apply sel_inv in H. destruct H as (q & p & c & -> & -> & H).
  exists (TW (qword q) :: c). split; [reflexivity|].
  destruct H as [[-> Hp]|(p' & -> & -> & Hp)]; [apply spl_sel | apply spl_sel_fused]; exact Hp.
Qed.

Lemma spl_up_to i j ts e : SpellsL i ts e -> (i <= j)%nat -> SpellsL j ts e.
Proof. intros H Hle. induction Hle; [exact H|]. apply spl_up. exact IHHle. Qed.

(* the relation CondParseP.lvl_ok (same body, a Prop); lemmas about lvl_ok apply to it by conversion *)
Definition lvl_okb (o : bop) (k : nat) : Prop := (o = BAnd /\ k = 1%nat) \/ (o = BOr /\ k = 2%nat).

Lemma spl_bin o k c1 c2 a b : lvl_okb o k ->
  SpellsL (S k) c1 a -> SpellsL k c2 b -> SpellsL (S k) (c1 ++ TW (opw o) :: c2) (expr_bin o a b).
Proof. intros [[-> ->]|[-> ->]] H1 H2; [apply spl_and | apply spl_or]; assumption. Qed.

(* Every successful run of the parser is derived by these eight rules: the rules of pe and loop without
   the conditions under which the parser prefers one to another. Hence induction over them. *)
Section Runs.
  Variable P : nat -> list tok -> ptree -> list tok -> Prop.
  Variable Q : bop -> nat -> list ptree -> list tok -> ptree -> list tok -> Prop.
  Hypothesis Rsel : forall ts t r, sel PSel ts = Some (t, r) -> P 0 ts t r.
  Hypothesis Rid : forall w r, is_ident w = true -> P 0 (TW w :: r) (PId w) r.
  Hypothesis Rpar : forall ts t r, P 3 ts t (TR :: r) -> P 0 (TL :: ts) t r.
  Hypothesis Rnot : forall ts t r, P 1 ts t r -> P 1 (TW w_not :: ts) (PNot t) r.
  Hypothesis Rup : forall ts t r, P 0 ts t r -> P 1 ts t r.
  Hypothesis Rbin : forall k ts t r t' r',
    P (S k) ts t r -> Q (lvl_op (S k)) (S k) [t] r t' r' -> P (S (S k)) ts t' r'.
  Hypothesis Rstop : forall o k acc r, Q o k acc r (fin t_bin o (rev acc)) r.
  Hypothesis Rstep : forall o k acc ts t r t' r',
    P k ts t r -> Q o k (t :: acc) r t' r' -> Q o k acc (TW (opw o) :: ts) t' r'.

  Lemma runs : forall f,
    (forall i ts t r, pet f i ts = Done (t, r) -> P i ts t r) /\
    (forall o k acc r0 t r, loopt f o k acc r0 = Done (t, r) -> Q o k acc r0 t r).
  Proof.
    induction f as [|f [IHp IHl]]; split; intros; try discriminate.
    - rewrite pe_S in H. destruct i as [|[|k]].
      + destruct (sel PSel ts) as [[t0 r0]|] eqn:Es; [injection H as <- <-; auto|].
        destruct ts as [|[w| |] r0]; try discriminate.
        * destruct (is_ident w) eqn:Ei; [|discriminate]. injection H as <- <-. auto.
        * destruct (pet f 3 r0) as [[v [|[w| |] r']]| |] eqn:E; try discriminate. injection H as <- <-. auto.
      + destruct ts as [|[w| |] r0]; auto. destruct (str_eqb w w_not) eqn:Ew; auto.
        apply str_eqb_eq in Ew. subst w.
        destruct (pet f 1 r0) as [[v r']| |] eqn:E; try discriminate; auto. injection H as <- <-. auto.
      + destruct (pet f (S k) ts) as [[v r1]| |] eqn:E; try discriminate. eauto.
    - rewrite loop_S in H.
      destruct r0 as [|[w| |] r']; try (injection H as <- <-; apply Rstop).
      destruct (str_eqb w (opw o)) eqn:Ew; [|injection H as <- <-; apply Rstop].
      apply str_eqb_eq in Ew. subst w.
      destruct (pet f k r') as [[v' r'']| |] eqn:E; try discriminate; [eauto | injection H as <- <-; apply Rstop].
  Qed.
End Runs.

(* Each rule of the parser is a rule of the lenient grammar. In the loop, c0 spells at level k+1 the chain of the
   operands read so far (acc, latest first), and the result spells c0 followed by what the loop consumes. *)
Lemma sound : forall f,
  (forall i ts t r, (i <= 3)%nat -> pet f i ts = Done (t, r) ->
     exists c, ts = c ++ r /\ SpellsL i c (unflat t)) /\
  (forall o k acc r0 t r, lvl_okb o k -> acc <> [] -> loopt f o k acc r0 = Done (t, r) ->
     forall c0, SpellsL (S k) c0 (unflat (fin t_bin o (rev acc))) ->
     exists c, c0 ++ r0 = c ++ r /\ SpellsL (S k) c (unflat t)).
Proof.
  intros f.
  pose (P i ts t r := (i <= 3)%nat -> exists c, ts = c ++ r /\ SpellsL i c (unflat t)).
  pose (Q o k acc r0 t r := lvl_okb o k -> acc <> [] ->
          forall c0, SpellsL (S k) c0 (unflat (fin t_bin o (rev acc))) ->
          exists c, c0 ++ r0 = c ++ r /\ SpellsL (S k) c (unflat t)).
  destruct (runs P Q) with (f := f) as [Sp Sl]; [..| split; intros; [eapply Sp | eapply Sl]; eauto]; unfold P, Q.
  (* the eight rules in their order, Rsel to Rstep *)
  - intros ts t r Es _. apply sel_sound, Es.
  - intros w r Ei _. exists [TW w]. split; [reflexivity | apply spl_id, Ei].
  - intros ts t r IH _. destruct (IH (le_n _)) as [c [-> Hc]].
    exists (TL :: c ++ [TR]). split; [simpl; rewrite <- app_assoc; reflexivity | apply spl_par, Hc].
  - intros ts t r IH Hi. destruct (IH Hi) as [c [-> Hc]].
    exists (TW w_not :: c). split; [reflexivity | apply spl_not, Hc].
  - intros ts t r IH _. destruct (IH (Nat.le_0_l _)) as [c [-> Hc]].
    exists c. split; [reflexivity | apply spl_up, Hc].
  - intros k ts t r t' r' IH IHq Hi. destruct IH as [c1 [-> Hc1]]; [lia|].
    apply IHq; [apply lvl_ok_lvl_op; lia | discriminate | apply spl_up, Hc1].
  - intros o k acc r _ _ c0 Hc0. exists c0. split; [reflexivity | exact Hc0].
  - intros o k acc ts t r t' r' IH IHq Hl Hacc c0 Hc0.
    destruct IH as [c' [-> Hc']]; [destruct Hl as [[_ ->]|[_ ->]]; lia|].
    destruct (IHq Hl ltac:(discriminate) (c0 ++ TW (opw o) :: c')) as [c [Ec Hc]].
    + cbn [rev]. rewrite unflat_snoc by (apply rev_nonnil, Hacc). apply spl_bin; assumption.
    + exists c. split; [rewrite <- Ec, <- app_assoc; reflexivity | exact Hc].
Qed.

Lemma parse_tree_sound ts t : parse_tree ts = Done t -> SpellsL 3 ts (unflat t).
Proof.
  intros H. apply parse_toks_Done in H as [f H].
  destruct (proj1 (sound f) 3%nat ts t [] (le_n _) H) as [c [Ec Hc]].
  rewrite app_nil_r in Ec. subst c. exact Hc.
Qed.

Section Built.
  Variable P : ptree -> Prop.
  Hypothesis Pid : forall n, P (PId n).
  Hypothesis Psel : forall q p, P (PSel q p).
  Hypothesis Pnot : forall a, P a -> P (PNot a).
  Hypothesis Pbin : forall o l, l <> [] -> Forall P l -> P (t_bin o l).

  Lemma built_fin o l : l <> [] -> Forall P l -> P (fin t_bin o l).
  Proof.
    intros Hl Hall. destruct l as [|x [|y l]]; [congruence | exact (Forall_inv Hall) | apply Pbin; assumption].
  Qed.

  Lemma built f i ts t r : pet f i ts = Done (t, r) -> P t.
  Proof.
    apply (runs (fun _ _ t _ => P t) (fun _ _ acc _ t _ => acc <> [] -> Forall P acc -> P t)); auto.
    (* auto leaves Rsel, Rbin, Rstop, Rstep *)
    - intros ts0 t0 r0 Es. apply sel_inv in Es. destruct Es as (q & p & _ & -> & _). apply Psel.
    - intros k ts0 t0 r0 t' r' Ht Hq. apply Hq; [discriminate | auto].
    - intros o k acc r0 Hacc Hall. apply built_fin; [apply rev_nonnil | apply Forall_rev]; assumption.
    - intros o k acc ts0 t0 r0 t' r' Ht Hq _ Hall. apply Hq; [discriminate | auto].
  Qed.
End Built.

Section Chain.
  Context {A : Type}.
  Variable a_id : str -> A.
  Variable a_sel : quant -> str -> A.
  Variable a_not : A -> A.
  Variable a_bin : bop -> list A -> A.
  Variable e_bin : bop -> A -> A -> A.
  Hypothesis L : lawful a_bin e_bin.
  Notation h := (foldt a_id a_sel a_not a_bin).
  Notation g := (folde a_id a_sel a_not e_bin).

  Lemma folde_flat o l : l <> [] -> g (e_flat o l) = a_bin o (map g l).
  Proof.
    destruct L as [L1 L2]. destruct l as [|x l]; [congruence | intros _].
    induction l as [|y l IH] using rev_ind; [symmetry; apply L1|].
    cbn [e_flat map] in *. rewrite fold_left_app, map_app, app_comm_cons. cbn [fold_left map].
    rewrite L2, <- IH by discriminate. destruct o; reflexivity.
  Qed.

  Lemma parse_tree_fold ts t : parse_tree ts = Done t -> h t = g (unflat t).
  Proof.
    intros H. apply parse_toks_Done in H as [f H]. revert H.
    apply (built (fun t => h t = g (unflat t))); try reflexivity.
    - intros a IH. simpl. rewrite IH. reflexivity.
    - intros o l Hl Hall. rewrite bin_hom, unflat_bin, folde_flat, map_map by (destruct l; simpl; congruence).
      f_equal. apply map_ext_Forall, Hall.
  Qed.
End Chain.

Theorem accepted_fold s t : parse s = Ok t ->
  exists e, SpellsLenient s e /\ same_folds t e.
Proof.
  intros H. apply parse_Ok in H as (ts & El & Ep).
  exists (unflat t). split.
  - exists ts. split; [apply lex_sound; exact El | apply parse_tree_sound; exact Ep].
  - intros A a_id a_sel a_not a_bin e_bin L. apply (parse_tree_fold _ _ _ _ _ L ts), Ep.
Qed.

Theorem accepted_is_spelled s t : parse s = Ok t ->
  exists e, SpellsLenient s e /\ forall vid vsel, denv vid vsel t = semv vid vsel e.
Proof.
  intros H. destruct (accepted_fold s t H) as (e & He & Hf). exists e. split; [exact He | exact (fold_denv t e Hf)].
Qed.

Lemma strict_is_lenient i ts e : SpellsT i ts e -> wf_expr e = true -> SpellsL i ts e.
Proof.
  induction 1; intros Hw; simpl in Hw.
  - apply andb_true_iff in Hw. destruct Hw as [Hi _]. apply spl_id. exact Hi.
  - apply spl_sel. exact Hw.
  - apply spl_par. auto.
  - apply spl_not. auto.
  - apply andb_true_iff in Hw. destruct Hw. apply spl_and; auto.
  - apply andb_true_iff in Hw. destruct Hw. apply spl_or; auto.
  - apply spl_up. auto.
Qed.

Theorem spelling_unique s e1 e2 :
  wf_expr e1 = true -> wf_expr e2 = true -> Spells s e1 -> Spells s e2 -> e1 = e2.
Proof.
  intros W1 W2 S1 S2.
  destruct (parse_complete_fold e1 s W1 S1) as [t1 [P1 F1]].
  destruct (parse_complete_fold e2 s W2 S2) as [t2 [P2 F2]].
  rewrite P1 in P2. injection P2 as ->.
  rewrite <- (folde_expr e1), <- (folde_expr e2), <- (F1 _ _ _ _ _ _ lawful_flat). apply F2, lawful_flat.
Qed.

Theorem unambiguous s e1 e2 :
  wf_expr e1 = true -> wf_expr e2 = true -> Spells s e1 -> Spells s e2 ->
  forall vid vsel, semv vid vsel e1 = semv vid vsel e2.
Proof. intros W1 W2 S1 S2 vid vsel. rewrite (spelling_unique s e1 e2 W1 W2 S1 S2). reflexivity. Qed.
