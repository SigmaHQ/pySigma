(* SigmaString.convert and to_regex read back (C05, C17): under `wf_escaping`, the domain predicate of
   the escaping configuration, the target's reader gives the items of the value back from the text. *)
From Coq Require Import NArith List Bool Lia.
From PS Require Import Base.Chars Base.Outcome Model.SString Spec.Items Proofs.OutcomeP Proofs.CharsP Proofs.SStringP.
Import ListNotations.
Open Scope N_scope.

(* A usable escaping configuration: an escape character exists and is itself escaped or
   filtered; wildcard tokens are non-empty, do not start with the escape character and
   start with different characters. *)
Definition hd_ok (e : char) (w : option str) : bool :=
  match w with None => true | Some [] => false | Some (x :: _) => negb (N.eqb x e) end.
Definition hd_differ (a b : option str) : bool :=
  match a, b with Some (x :: _), Some (y :: _) => negb (N.eqb x y) | _, _ => true end.
Definition wf_escaping (K : ecfg) : bool :=
  match e_esc K with
  | None => false
  | Some e =>
    (mem e (escaped_chars K) || mem e (e_filter K)) &&
    hd_ok e (e_multi K) && hd_ok e (e_single K) && hd_differ (e_multi K) (e_single K)
  end.

Lemma wf_escaping_parts K e : e_esc K = Some e -> wf_escaping K = true ->
  mem e (escaped_chars K) || mem e (e_filter K) = true /\ hd_ok e (e_multi K) = true /\
  hd_ok e (e_single K) = true /\ hd_differ (e_multi K) (e_single K) = true.
Proof.
  unfold wf_escaping. intros -> H.
  apply andb_prop in H as [H Hd]. apply andb_prop in H as [H Hs]. apply andb_prop in H as [Hself Hm]. auto.
Qed.

Lemma filter_items_app K a b : filter_items K (a ++ b) = filter_items K a ++ filter_items K b.
Proof. unfold filter_items. apply filter_app. Qed.

Lemma filter_items_none K l : e_filter K = [] -> filter_items K l = l.
Proof.
  unfold filter_items. intros ->. induction l as [|[] l IH]; simpl; f_equal; exact IH.
Qed.

(* The text convert K emits for one item when the escape character is e. token_esc has no premise that c is among
   the escaped characters: the relation admits more than convert emits, because the reader takes any character
   after e. *)
Inductive token (K : ecfg) (e : char) : item -> str -> Prop :=
| token_esc c : token K e (Lit c) [e; c]
| token_lit c : mem c (e_filter K) = false -> mem c (escaped_chars K) = false -> token K e (Lit c) [c]
| token_multi w : e_multi K = Some w -> token K e Multi w
| token_single w : e_single K = Some w -> token K e Single w.

(* The output of convert is the concatenation of the tokens of the items that pass the filter.
   Stated as an induction principle so that a reader (P q l: "q reads as l") can be run over it
   with any continuation. *)
Lemma convert_tokens K e (P : str -> list item -> Prop) :
  e_esc K = Some e ->
  (forall i t r l, token K e i t -> P r l -> P (t ++ r) (i :: l)) ->
  forall v q, convert K v = Ok q ->
  forall r l, P r l -> P (q ++ r) (filter_items K (items v) ++ l).
Proof.
  intros He Ht.
  assert (Hs : forall s r l, P r l ->
            P (flat_map (conv_char K) s ++ r) (filter_items K (map Lit s) ++ l)).
  { unfold filter_items. induction s as [|c s IH]; intros r l H; [exact H|].
    cbn [flat_map map filter]. rewrite <- app_assoc. apply IH in H. unfold conv_char at 1.
    destruct (mem c (e_filter K)) eqn:Ef; [exact H|].
    destruct (mem c (escaped_chars K)) eqn:Ec.
    - rewrite He. apply (Ht (Lit c) [e; c]); [constructor | exact H].
    - apply (Ht (Lit c) [c]); [constructor; assumption | exact H]. }
  induction v as [|p v IH]; intros q Hq r l H.
  - injection Hq as <-. exact H.
  - rewrite items_cons, filter_items_app, <- app_assoc. cbn [convert] in Hq. destruct p as [s| | |n].
    + apply obind_ok in Hq as (q' & Hq' & [= <-]). rewrite <- app_assoc. apply Hs, (IH q' Hq'), H.
    + destruct (e_multi K) as [w|] eqn:Ew; [|discriminate].
      apply obind_ok in Hq as (q' & Hq' & [= <-]). rewrite <- app_assoc.
      apply (Ht Multi w); [constructor; exact Ew | apply (IH q' Hq'), H].
    + destruct (e_single K) as [w|] eqn:Ew; [|discriminate].
      apply obind_ok in Hq as (q' & Hq' & [= <-]). rewrite <- app_assoc.
      apply (Ht Single w); [constructor; exact Ew | apply (IH q' Hq'), H].
    + discriminate.
Qed.

(* One round of tdecode (and of qdecode, once it has seen that the literal is not closed): the item
   at the head of a target literal and the text that follows it. *)
Definition tstep (K : ecfg) (s : str) : option (item * str) :=
  match s with
  | [] => None
  | c :: s' =>
    if match e_esc K with Some e => N.eqb e c | None => false end then
      match s' with d :: s'' => Some (Lit d, s'') | [] => None end
    else match starts (e_multi K) s with
         | Some r => Some (Multi, r)
         | None => match starts (e_single K) s with
                   | Some r => Some (Single, r)
                   | None => Some (Lit c, s')
                   end
         end
  end.

Lemma tdecode_tstep f K s i r :
  tstep K s = Some (i, r) -> tdecode (S f) K s = option_map (cons i) (tdecode f K r).
Proof.
  destruct s as [|c s]; [discriminate|]. cbn [tstep tdecode].
  destruct (match e_esc K with Some e => N.eqb e c | None => false end).
  - destruct s; [discriminate|]. intros [= <- <-]. reflexivity.
  - destruct (starts (e_multi K) (c :: s)); [intros [= <- <-]; reflexivity|].
    destruct (starts (e_single K) (c :: s)); intros [= <- <-]; reflexivity.
Qed.

Lemma starts_hd w x s r : starts w (x :: s) = Some r -> exists w', w = Some (x :: w').
Proof.
  destruct w as [[|y w]|]; try discriminate. simpl.
  destruct (N.eqb_spec y x) as [->|]; [eauto | discriminate].
Qed.

Lemma starts_escaped K c s r :
  starts (e_multi K) (c :: s) = Some r \/ starts (e_single K) (c :: s) = Some r ->
  mem c (escaped_chars K) = true.
Proof.
  unfold escaped_chars. intros [H|H]; apply starts_hd in H as [w ->]; rewrite !mem_app; simpl;
    rewrite N.eqb_refl; [reflexivity | apply orb_true_r].
Qed.

Lemma starts_app x w r : starts (Some (x :: w)) (x :: w ++ r) = Some r.
Proof. unfold starts. rewrite app_comm_cons, prefixb_app, skipn_app, skipn_all, PeanoNat.Nat.sub_diag. reflexivity. Qed.

Lemma tstep_token K e i t r :
  e_esc K = Some e -> wf_escaping K = true -> token K e i t -> tstep K (t ++ r) = Some (i, r).
Proof.
  intros He Hwf Ht. destruct (wf_escaping_parts K e He Hwf) as (Hself & Hm & Hs & Hd).
  destruct Ht as [c | c Hf Hc | w Hw | w Hw]; cbn [app tstep].
  - rewrite He, N.eqb_refl. reflexivity.
  - rewrite He.
    (* the escape character is escaped or filtered, c is neither *)
    destruct (N.eqb_spec e c) as [->|_]; [rewrite Hc, Hf in Hself; discriminate|].
    destruct (starts (e_multi K) (c :: r)) eqn:E;
      [rewrite (starts_escaped K c r _ (or_introl E)) in Hc; discriminate|].
    destruct (starts (e_single K) (c :: r)) eqn:E';
      [rewrite (starts_escaped K c r _ (or_intror E')) in Hc; discriminate|].
    reflexivity.
  - rewrite Hw in Hm. destruct w as [|m w]; [discriminate|]. apply negb_true_iff in Hm.
    cbn [app tstep]. rewrite He, N.eqb_sym, Hm, Hw.
    rewrite starts_app. reflexivity.
  - rewrite Hw in Hs, Hd. destruct w as [|m w]; [discriminate|]. apply negb_true_iff in Hs.
    cbn [app tstep]. rewrite He, N.eqb_sym, Hs.
    destruct (starts (e_multi K) (m :: w ++ r)) eqn:E.
    { apply starts_hd in E as [w' E]. rewrite E in Hd. simpl in Hd. rewrite N.eqb_refl in Hd. discriminate. }
    rewrite Hw, starts_app. reflexivity.
Qed.

Theorem convert_decode K v q :
  wf_escaping K = true -> convert K v = Ok q -> tread K q = Some (filter_items K (items v)).
Proof.
  intros Hwf Hq.
  destruct (e_esc K) as [e|] eqn:He; [|unfold wf_escaping in Hwf; rewrite He in Hwf; discriminate].
  assert (H : Reads (fun f => tdecode f K) (q ++ []) (filter_items K (items v) ++ [])).
  { apply (convert_tokens K e _ He); [|exact Hq|].
    - intros i t r l Ht. apply reads_token.
      + (* a token is not empty: nothing is read from the empty text *)
        intros ->. discriminate (tstep_token K e i [] [] He Hwf Ht).
      + intros f. apply tdecode_tstep, (tstep_token K e i t r He Hwf Ht).
    - intros [|f] Hf; [lia | reflexivity]. }
  rewrite !app_nil_r in H. apply H. lia.
Qed.

(* If the escape character is neither escaped nor filtered, decoding fails to return the value:
   the configuration of the shipped TextQueryTestBackend (escape backslash, add_escaped colon and double quote; its
   filter_chars "&" are left out, the value below has none) *)
Definition test_backend_cfg : ecfg :=
  {| e_esc := Some c_bs; e_multi := Some [c_star]; e_single := Some [c_qm];
     e_add := [c_colon; c_dq]; e_filter := [] |}.
Lemma convert_unescaped_escape_refuted :
  exists v q, convert test_backend_cfg v = Ok q /\
              tread test_backend_cfg q <> Some (items v).
Proof. exists [PStr [c_bs]; PMulti]. eexists. split; [reflexivity|]. vm_compute. discriminate. Qed.

Definition no_ph (l : list item) : bool :=
  forallb (fun i => match i with Ph _ => false | _ => true end) l.

(* Both wildcard tokens of the regular-expression form start with a dot, so it is not a usable
   configuration in the sense above: "." followed by an emitted "*" would read as ".*". It never is,
   because a literal star is emitted escaped: no token starts with a star. *)
Definition rdec (q : str) (l : list item) : Prop :=
  rdecode q = Some l /\ match q with c :: _ => N.eqb c c_star = false | [] => True end.

Lemma rdec_token custom i t r l :
  token (regex_cfg custom) c_bs i t -> rdec r l -> rdec (t ++ r) (i :: l).
Proof.
  intros Ht [Hr Hhd]. unfold rdec.
  destruct Ht as [c | c _ Hc | w [= <-] | w [= <-]]; cbn [app rdecode].
  - rewrite N.eqb_refl, Hr. split; reflexivity.
  - rewrite (mem_neq _ c_bs _ Hc), (mem_neq _ c_dot _ Hc), Hr by reflexivity.
    split; [reflexivity | exact (mem_neq _ c_star _ Hc eq_refl)].
  - simpl. rewrite Hr. split; reflexivity.
  - split; [|reflexivity]. change (N.eqb c_dot c_bs) with false. change (N.eqb c_dot c_dot) with true.
    destruct r as [|d r]; [injection Hr as <-; reflexivity|]. rewrite Hhd, Hr. reflexivity.
Qed.

Theorem regex_decode custom v q : to_regex custom v = Ok q -> rdecode q = Some (items v).
Proof.
  intros Hq.
  destruct (convert_tokens (regex_cfg custom) c_bs rdec eq_refl (rdec_token custom) v q Hq [] [])
    as [H _]; [split; [reflexivity | exact I]|].
  rewrite !app_nil_r, filter_items_none in H by reflexivity. exact H.
Qed.
