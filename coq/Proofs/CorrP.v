(* The correlation converter (Model/Corr.v) against Spec/CorrSpec.v: numbers and time spans; the
   pipeline on a correlation rule as per-name renaming; on the domain `sdom` the converter's tree,
   normalised, is the tree `expected`; for bracket-free names that tree is well formed, so its text
   reads back; closed inputs outside the domain on which the two trees differ. *)
From Coq Require Import String Ascii.
From Coq Require Import List NArith ZArith Bool DecimalZ DecimalPos.
From PS Require Import Base.Chars Base.Outcome Model.Backend Spec.Target Model.BTree Model.Corr Spec.CorrSpec
                       Proofs.BackendMainP Proofs.BackendDomP Proofs.BTreeP Proofs.OutcomeP Proofs.CharsP.
Import ListNotations.
Open Scope list_scope.
Open Scope N_scope.

(* names free of the bracket characters and embedded queries that are well-formed trees: the part of
   `dom` under which the converter's tree is well formed (convc_wf) *)
Definition clean_fmap (f : fmap) : bool :=
  match f with
  | FMap l => forallb (fun kv : str * list str => forallb clean (snd kv)) l
  | FPrefix p => clean p
  | FSuffix s => clean s
  end.
Definition clean_info (ri : rinfo) : bool :=
  forallb wfl (ri_raw ri) && forallb wfl (ri_fin ri) && clean (ruleid ri) && forallb clean (ri_fields ri).
Definition clean_fieldref (f : fieldref) : bool :=
  match f with FNone => true | FOne x => clean x | FMany l => forallb clean l end.
Definition clean_rule (r : crule) : bool :=
  clean (r_ts r) && forallb clean (match r_gb r with Some g => g | None => [] end)
  && forallb (fun am : str * list (str * nat * str) => clean (fst am) && forallb (fun e : str * nat * str => clean (snd e)) (snd am)) (r_aliases r)
  && forallb clean (r_fields r)
  && clean_fieldref (match the_cond r with CBasic _ _ f _ => f | CExt _ => FNone end)
  && forallb (fun rf => clean_info (rr_info rf)) (referenced r)
  && forallb (fun rf => clean (rr_ref rf)) (r_xrefs r).

(* an alias entry and a rule reference name the same document iff they are spelled the same
   (refuted without it: alias_other_identifier_refuted) *)
Definition aliases_spelled (r : crule) : bool :=
  forallb (fun am : str * list (str * nat * str) =>
             forallb (fun e : str * nat * str =>
                        forallb (fun rf => Bool.eqb (str_eqb (fst (fst e)) (rr_ref rf)) (Nat.eqb (snd (fst e)) (rr_doc rf)))
                                (referenced r))
                     (snd am))
          (r_aliases r).
(* every pipeline item applies to the correlation rule iff it applies to each referenced rule
   (refuted without it: conditioned_renaming_refuted) *)
Definition uniform (P : list pitem) (r : crule) : bool :=
  let cats := flat_map (fun rf => ri_cats (rr_info rf)) (referenced r) in
  forallb (fun it => forallb (fun rf => Bool.eqb (matches it cats) (matches it (ri_cats (rr_info rf)))) (referenced r)) P.

(* The domain on which converter and specification agree (s for specification): outside either
   conjunct they differ, see the two refutations.  K is not used; it keeps sdom, dom and xdom alike. *)
Definition sdom (K : kcfg) (P : list pitem) (r : crule) : bool :=
  aliases_spelled r && uniform P r.
Definition dom (K : kcfg) (P : list pitem) (r : crule) : bool :=
  clean_rule r && forallb (fun it => clean_fmap (pi_f it)) P && sdom K P r.

(* extended conditions: operators have arguments, only references / not / and / or occur, every
   identifier is spelled like the name-or-id of the rule it resolves to (otherwise:
   extended_reference_spelling_refuted), the backend's precedence tuple is a permutation.
   xdom is the in-domain test of Run/C10run.v; ext_structure below asks for cfg_ok and xshape only. *)
Fixpoint xshape (c : cond) : bool :=
  match c with
  | CAtom _ _ _ _ => true
  | CNot a => xshape a
  | CBin _ args => negb (match args with [] => true | _ => false end) &&
                   (fix all l := match l with [] => true | x :: r => xshape x && all r end) args
  | _ => false
  end.
Definition xdom (K : kcfg) (r : crule) : bool :=
  match the_cond r with
  | CExt t => cfg_ok (k_cfg K) && xshape t
              && forallb (fun rf => str_eqb (rr_ref rf) (ruleid (rr_info rf))) (r_xrefs r)
  | _ => true
  end.

Lemma uint_of_str u : uint_of_digits (str_of_uint u) = Some u.
Proof. induction u; simpl; rewrite ?IHu; reflexivity. Qed.

Lemma str_of_uint_digits u : forallb is_digit (str_of_uint u) = true.
Proof. induction u; simpl; auto. Qed.

Lemma str_of_uint_nonnil u : u <> Decimal.Nil -> str_of_uint u <> [].
Proof. destruct u; simpl; congruence. Qed.

Lemma digits_us_digits l : forallb is_digit l = true -> l <> [] -> digits_us false l = Some l.
Proof.
  assert (H : forall r, forallb is_digit r = true -> digits_us true r = Some r).
  { induction r as [|c r IH]; simpl; [reflexivity|]. intros [-> Hr]%andb_true_iff. rewrite (IH Hr). reflexivity. }
  destruct l as [|c r]; simpl; [congruence|]. intros [-> Hr]%andb_true_iff _. rewrite (H r Hr). reflexivity.
Qed.

Lemma digit_not_ws c : is_digit c = true -> negb (is_ws c) = true.
Proof.
  unfold is_digit, is_ws. intros [H _]%andb_true_iff. apply N.leb_le in H.
  rewrite (proj2 (N.leb_gt c 13) (N.lt_le_trans 13 48 c eq_refl H)), andb_false_r, orb_false_r.
  apply negb_true_iff, N.eqb_neq. intros ->. exact (H eq_refl).
Qed.

Lemma digit_not_sign c : is_digit c = true -> (c =? 45) = false /\ (c =? 43) = false.
Proof.
  unfold is_digit. intros [H _]%andb_true_iff. apply N.leb_le in H.
  split; apply N.eqb_neq; intros ->; exact (H eq_refl).
Qed.

Lemma str_no_ws u : forallb (fun c => negb (is_ws c)) (str_of_uint u) = true.
Proof. induction u; simpl; auto. Qed.

Lemma lstrip_id s : match s with c :: _ => is_ws c = false | [] => True end -> lstrip s = s.
Proof. destruct s as [|c s]; simpl; [reflexivity|]. intros ->. reflexivity. Qed.

Lemma lstrip_no_ws s : forallb (fun c => negb (is_ws c)) s = true -> lstrip s = s.
Proof.
  intros H. apply lstrip_id. destruct s as [|c s]; [exact I|].
  apply andb_prop in H as [H _]. apply negb_true_iff, H.
Qed.

Lemma strip_id s : forallb (fun c => negb (is_ws c)) s = true -> strip s = s.
Proof.
  intros H. unfold strip. rewrite (lstrip_no_ws s H), lstrip_no_ws, rev_involutive; [reflexivity|].
  rewrite forallb_forall in *. intros c Hc. apply H, in_rev, Hc.
Qed.

Lemma py_int_uint u : u <> Decimal.Nil -> py_int (str_of_uint u) = Some (Z.of_uint u).
Proof.
  intros Hn. unfold py_int. rewrite (strip_id _ (str_no_ws u)).
  pose proof (str_of_uint_digits u) as Hg.
  pose proof (digits_us_digits _ Hg (str_of_uint_nonnil u Hn)) as Hd. pose proof (uint_of_str u) as Hu.
  destruct (str_of_uint u) as [|c s]; [discriminate Hd|].
  destruct (digit_not_sign c (proj1 (andb_prop _ _ Hg))) as [-> ->]. rewrite Hd, Hu. reflexivity.
Qed.

Lemma py_int_neg u : u <> Decimal.Nil -> py_int (45 :: str_of_uint u) = Some (- Z.of_uint u)%Z.
Proof.
  intros Hn. unfold py_int. rewrite (strip_id (45 :: _) (str_no_ws u)).
  cbn [N.eqb Pos.eqb].
  rewrite (digits_us_digits _ (str_of_uint_digits u) (str_of_uint_nonnil u Hn)), uint_of_str. reflexivity.
Qed.

Theorem py_int_dec z : py_int (dec_of_Z z) = Some z.
Proof.
  unfold dec_of_Z. pose proof (DecimalZ.of_to z) as H.
  destruct z as [|p|p]; cbn [Z.to_int Z.of_int] in *.
  - reflexivity.
  - rewrite py_int_uint, H by apply DecimalPos.Unsigned.to_uint_nonnil. reflexivity.
  - rewrite py_int_neg, H by apply DecimalPos.Unsigned.to_uint_nonnil. reflexivity.
Qed.

Theorem timespan_seconds spec t : parse_ts spec = Some t ->
  exists len, unit_len (t_unit t) = Some len /\ t_seconds t = (t_count t * len)%Z /\
              py_int (render_ts TsSeconds spec t) = Some (t_count t * len)%Z /\
              (exists body, spec = body ++ [t_unit t] /\ py_int body = Some (t_count t)).
Proof.
  unfold parse_ts. intros H.
  destruct (rev spec) as [|u rc] eqn:Er; [discriminate|].
  destruct (py_int (rev rc)) as [n|] eqn:En; [|discriminate].
  destruct (unit_len u) as [len|] eqn:Eu; [|discriminate].
  injection H as <-. exists len. repeat split; [exact Eu | apply py_int_dec |].
  exists (rev rc). split; [|exact En]. rewrite <- (rev_involutive spec), Er. reflexivity.
Qed.

Lemma unit_table :
  unit_len 115 = Some 1%Z /\ unit_len 109 = Some 60%Z /\ unit_len 104 = Some 3600%Z /\
  unit_len 100 = Some 86400%Z /\ unit_len 119 = Some 604800%Z /\ unit_len 77 = Some 2629746%Z /\
  unit_len 121 = Some 31556952%Z /\
  (forall u, u <> 115 -> u <> 109 -> u <> 104 -> u <> 100 -> u <> 119 -> u <> 77 -> u <> 121 -> unit_len u = None).
Proof.
  repeat split. intros u H1 H2 H3 H4 H5 H6 H7. unfold unit_len.
  apply N.eqb_neq in H1, H2, H3, H4, H5, H6, H7. rewrite H1, H2, H3, H4, H5, H6, H7. reflexivity.
Qed.

Lemma xshape_wfb K t : xshape t = true -> wfb (xcfg K) t = true.
Proof.
  induction t as [k f n a|args IH|f ps|a|a IH|o args IH] using cond_ind'; simpl; intros H; try discriminate; auto.
  - rewrite (IH H). reflexivity.
  - apply andb_true_iff in H as [H1 H2]. apply andb_true_iff. split; [destruct args; [discriminate H1|reflexivity]|].
    clear H1. induction IH as [|x l Px _ IHl]; [reflexivity|].
    apply andb_true_iff in H2 as [Hx Hl]. rewrite (Px Hx). exact (IHl Hl).
Qed.

(* stated with cfg_ok K and lvl K where structure_b gives cfg_ok (xcfg K) and lvl (xcfg K): the two agree by
   conversion because xcfg copies the field lvl *)
Theorem ext_structure K asg t : cfg_ok K = true -> xshape t = true ->
  exists f, pe (lvl K) asg f 3 (conv (xcfg K) false t) = Some (den asg t, []).
Proof. intros HK Hx. exact (structure_b (xcfg K) asg t HK (xshape_wfb K t Hx)). Qed.

Lemma mapM_Forall2 {A B C} (f : A -> outcome B) (S : A -> C -> Prop) (g : C -> B) l l' :
  Forall2 S l l' -> (forall x y, In x l -> S x y -> f x = Ok (g y)) -> mapM f l = Ok (map g l').
Proof.
  induction 1 as [|x y l l' Hxy _ IH]; intros H; [reflexivity|]. simpl.
  rewrite (H x y (or_introl eq_refl) Hxy), (IH (fun a b Ha => H a b (or_intror Ha))). reflexivity.
Qed.

Lemma mapM_ext_in {A B} (f g : A -> outcome B) l : (forall x, In x l -> f x = g x) -> mapM f l = mapM g l.
Proof.
  induction l as [|x l IH]; intros H; [reflexivity|]. simpl.
  rewrite (H x (or_introl eq_refl)), (IH (fun y Hy => H y (or_intror Hy))). reflexivity.
Qed.

Lemma flat_map_single {A} (l : list A) : flat_map (fun x => [x]) l = l.
Proof. induction l as [|x l IH]; [reflexivity|]. simpl. rewrite IH. reflexivity. Qed.

Lemma Forall2_mono {A B} (R1 R2 : A -> B -> Prop) l l' :
  (forall a b, R1 a b -> R2 a b) -> Forall2 R1 l l' -> Forall2 R2 l l'.
Proof. induction 2; constructor; auto. Qed.

Lemma Forall2_diag {A} (R : A -> A -> Prop) l : (forall a, R a a) -> Forall2 R l l.
Proof. intros H. induction l; constructor; auto. Qed.

(* an alias table (a condition field) and its renamed form: same alias names and rules, every target field
   taken by g to one new name *)
Definition ent_rel (g : str -> outcome str) (e e' : str * nat * str) : Prop :=
  fst e = fst e' /\ g (snd e) = Ok (snd e').
Definition al_rel (g : str -> outcome str) (am am' : str * list (str * nat * str)) : Prop :=
  fst am = fst am' /\ Forall2 (ent_rel g) (snd am) (snd am').
Definition cf_rel (g : str -> outcome str) (c c' : fieldref) : Prop :=
  match c, c' with
  | FNone, FNone => True
  | FOne x, FOne y => g x = Ok y
  | FMany l, FMany l' => Forall2 (fun x y => g x = Ok y) l l'
  | _, _ => False
  end.

Lemma al_rel_names g l l' : Forall2 (al_rel g) l l' -> map fst l' = map fst l.
Proof. induction 1 as [|x y l l' [Hxy _] _ IH]; simpl; [reflexivity|]. rewrite Hxy, IH. reflexivity. Qed.

Lemma step_spec f st st' : step f st = Ok st' ->
  ps_fields st' = flat_map f (ps_fields st) /\
  Forall2 (al_rel (fun x => single (f x))) (ps_aliases st) (ps_aliases st') /\
  ps_gb st' = option_map (flat_map (fun x => if mem_str x (map fst (ps_aliases st)) then [x] else f x)) (ps_gb st) /\
  cf_rel (fun x => single (f x)) (ps_cf st) (ps_cf st').
Proof.
  unfold step. intros H.
  apply obind_ok in H as (ag & Hag & H). apply obind_ok in H as (cf & Hcf & <-%Ok_inj).
  apply obind_ok in Hag as (als & Hals & <-%Ok_inj). cbn [ps_fields ps_aliases ps_gb ps_cf fst snd].
  split; [reflexivity|]. split; [|split; [reflexivity|]].
  - apply (traverse_rel _ _ _ _ Hals). intros am _ am' Ham.
    apply obind_ok in Ham as (mp & Hmp & <-%Ok_inj). split; [reflexivity|]. cbn [snd].
    apply (traverse_rel _ _ _ _ Hmp). intros e _ e' He.
    apply obind_ok in He as (fl & Hfl & <-%Ok_inj). split; [reflexivity|exact Hfl].
  - destruct (ps_cf st) as [|x|l]; simpl in *.
    + apply Ok_inj in Hcf as <-. exact I.
    + apply obind_ok in Hcf as (y & Hy & <-%Ok_inj). exact Hy.
    + apply obind_ok in Hcf as (l' & Hl & <-%Ok_inj). apply (traverse_rel _ _ _ _ Hl). auto.
Qed.

Lemma al_rel_refl l : Forall2 (al_rel Ok) l l.
Proof.
  apply Forall2_diag. intros am. split; [reflexivity|]. apply Forall2_diag. intros e. split; reflexivity.
Qed.

Lemma al_rel_trans g h l1 l2 l3 : Forall2 (al_rel g) l1 l2 -> Forall2 (al_rel h) l2 l3 ->
  Forall2 (al_rel (fun x => obind (g x) h)) l1 l3.
Proof.
  apply Forall2_compose. intros a b c [Hab Eab] [Hbc Ebc]. split; [congruence|].
  revert Eab Ebc. apply Forall2_compose. intros e1 e2 e3 [H12 S12] [H23 S23]. split; [congruence|].
  rewrite S12. exact S23.
Qed.

Lemma cf_rel_refl c : cf_rel Ok c c.
Proof. destruct c; simpl; auto. apply Forall2_diag. reflexivity. Qed.

Lemma cf_rel_trans g h c1 c2 c3 : cf_rel g c1 c2 -> cf_rel h c2 c3 -> cf_rel (fun x => obind (g x) h) c1 c3.
Proof.
  destruct c1, c2; simpl; try tauto; destruct c3; simpl; try tauto.
  - intros ->. exact (fun H => H).
  - apply Forall2_compose. intros a b c ->. exact (fun H => H).
Qed.

Theorem run_pipeline_spec P cats : forall st st', run_pipeline P cats st = Ok st' ->
  ps_fields st' = flat_map (renl P cats) (ps_fields st) /\
  Forall2 (al_rel (ren1 P cats)) (ps_aliases st) (ps_aliases st') /\
  ps_gb st' = option_map (flat_map (reng P cats (map fst (ps_aliases st)))) (ps_gb st) /\
  cf_rel (ren1 P cats) (ps_cf st) (ps_cf st').
Proof.
  induction P as [|it P IH]; intros st st' H.
  - apply Ok_inj in H as <-. cbn [renl ren1 reng].
    split; [symmetry; apply flat_map_single|]. split; [apply al_rel_refl|]. split; [|apply cf_rel_refl].
    destruct (ps_gb st); simpl; [rewrite flat_map_single|]; reflexivity.
  - cbn [run_pipeline renl ren1 reng] in *. destruct (matches it cats); [|exact (IH _ _ H)].
    apply obind_ok in H as (st1 & H1 & H2).
    apply step_spec in H1 as (F1 & A1 & G1 & C1). apply IH in H2 as (F2 & A2 & G2 & C2).
    split; [|split; [|split]].
    + rewrite F2, F1. apply flat_map_flat_map.
    + exact (al_rel_trans _ _ _ _ _ A1 A2).
    + rewrite G2, G1, (al_rel_names _ _ _ A1).
      destruct (ps_gb st); simpl; [rewrite flat_map_flat_map|]; reflexivity.
    + exact (cf_rel_trans _ _ _ _ _ C1 C2).
Qed.

Lemma ref_fields_run P cats : forall fs,
  run_pipeline P cats {| ps_fields := fs; ps_aliases := []; ps_gb := None; ps_cf := FNone |} =
  Ok {| ps_fields := ref_fields P cats fs; ps_aliases := []; ps_gb := None; ps_cf := FNone |}.
Proof.
  induction P as [|it P IH]; intros fs; cbn [run_pipeline ref_fields]; [reflexivity|].
  destruct (matches it cats); apply IH.
Qed.

Lemma ref_fields_spec P cats fs : ref_fields P cats fs = flat_map (renl P cats) fs.
Proof. exact (proj1 (run_pipeline_spec P cats _ _ (ref_fields_run P cats fs))). Qed.

Lemma ren1_ext P c1 c2 : (forall it, In it P -> matches it c1 = matches it c2) -> forall x, ren1 P c1 x = ren1 P c2 x.
Proof.
  induction P as [|it P IH]; intros H x; [reflexivity|]. cbn [ren1].
  rewrite (H it (or_introl eq_refl)).
  assert (IH' := IH (fun it' Hit' => H it' (or_intror Hit'))).
  destruct (matches it c2), (single (apply_name (pi_f it) x)); simpl; auto.
Qed.
Lemma renl_ext P c1 c2 : (forall it, In it P -> matches it c1 = matches it c2) -> forall x, renl P c1 x = renl P c2 x.
Proof.
  induction P as [|it P IH]; intros H x; [reflexivity|]. cbn [renl].
  rewrite (H it (or_introl eq_refl)).
  assert (IH' := IH (fun it' Hit' => H it' (or_intror Hit'))).
  destruct (matches it c2); [apply flat_map_ext|]; auto.
Qed.

Lemma single_eq l y : single l = Ok y -> l = [y].
Proof. destruct l as [|a [|b q]]; simpl; intros [= <-]; reflexivity. Qed.
Lemma ren1_renl P c : forall x y, ren1 P c x = Ok y -> renl P c x = [y].
Proof.
  induction P as [|it P IH]; intros x y H; cbn [ren1 renl] in *.
  - apply Ok_inj in H as <-. reflexivity.
  - destruct (matches it c); [|auto].
    apply obind_ok in H as (z & Hz & H). rewrite (single_eq _ _ Hz). cbn [flat_map].
    rewrite (IH _ _ H). reflexivity.
Qed.

Lemma ren1_ref_fields P c x y : ren1 P c x = Ok y -> ref_fields P c [x] = [y].
Proof. intros H. rewrite ref_fields_spec. cbn [flat_map]. rewrite app_nil_r. exact (ren1_renl P c x y H). Qed.

Lemma ref_queries_in K refs rq : In rq (ref_queries K refs) ->
  In (fst rq) refs /\ In (snd rq) (embed K (rr_info (fst rq))).
Proof.
  unfold ref_queries. intros H. apply in_flat_map in H as (rf & Hrf & H).
  apply in_map_iff in H as (q & <- & Hq). split; assumption.
Qed.

Lemma search_cases K als refs sr : search K als refs = Ok sr ->
  search_multi K als refs = Ok sr \/
  (exists r1 q n, refs = [r1] /\ embed K (rr_info r1) = [q] /\ norm_nodes K als r1 = Ok n /\
                  sr = E (lit "S1") [E (lit "q") q; E (lit "n") n]).
Proof.
  unfold search. destruct refs as [|r1 [|r2 rest]]; auto.
  destruct (embed K (rr_info r1)) as [|q [|q2 qs]] eqn:Eq; auto.
  destruct (k_single K); auto.
  intros H. apply obind_ok in H as (n & Hn & <-%Ok_inj). right. exists r1, q, n. auto.
Qed.

Lemma search_norm K als refs sr : search K als refs = Ok sr ->
  search_multi K als refs = Ok (norm_kid (match refs with rf :: _ => ruleid (rr_info rf) | [] => [] end) sr).
Proof.
  intros H. destruct (search_cases _ _ _ _ H) as [Hm | (r1 & q & n & -> & Eq & Hn & ->)].
  - rewrite Hm. unfold search_multi in Hm. apply obind_ok in Hm as (l & _ & <-%Ok_inj). reflexivity.
  - unfold search_multi, ref_queries. cbn [flat_map]. rewrite Eq. cbn [map app mapM fst snd]. rewrite Hn. reflexivity.
Qed.

(* the one refusal of the aggregation phase: a percentile rule without a percentile *)
Definition pct_missing (ty : ctype) (c : ccond) : bool :=
  match ty, c with TValuePercentile, CBasic _ _ _ None => true | _, _ => false end.

Lemma pct_match {A} ty c (e v : A) :
  match ty, c with TValuePercentile, CBasic _ _ _ None => e | _, _ => v end = if pct_missing ty c then e else v.
Proof. destruct ty; try reflexivity. destruct c as [? ? ? [?|]|]; reflexivity. Qed.

Lemma normalize_txt id s : normalize id (txt s) = txt s.
Proof. destruct s; reflexivity. Qed.

Lemma normalize_query id pre tag sr ty tse ag cnd g suf :
  normalize id (txt pre ++ [E tag ([sr] ++ ty ++ [tse; ag; cnd; g])] ++ txt suf) =
  txt pre ++ [E tag ([norm_kid id sr] ++ map (norm_kid id) ty ++
                     [norm_kid id tse; norm_kid id ag; norm_kid id cnd; norm_kid id g])] ++ txt suf.
Proof.
  unfold normalize. rewrite !map_app. cbn [map]. rewrite !map_app.
  f_equal; [apply normalize_txt|]. f_equal. apply normalize_txt.
Qed.

Lemma typing_norm id K refs : map (norm_kid id) (typing K refs) = typing K refs.
Proof. unfold typing. destruct (k_typing K); reflexivity. Qed.

Section Uniform.
Variables (P : list pitem) (r : crule).
Hypothesis Hu : uniform P r = true.
Let refs := referenced r.
Let cats := flat_map (fun rf => ri_cats (rr_info rf)) refs.

Lemma uniform_matches rf it : In rf refs -> In it P -> matches it (ri_cats (rr_info rf)) = matches it cats.
Proof.
  unfold uniform in Hu. intros Hrf Hit.
  rewrite forallb_forall in Hu. specialize (Hu it Hit). rewrite forallb_forall in Hu.
  symmetry. exact (eqb_prop _ _ (Hu rf Hrf)).
Qed.

Lemma ren1_own rf x : In rf refs -> ren1 P (ri_cats (rr_info rf)) x = ren1 P cats x.
Proof. intros Hrf. apply ren1_ext. intros it Hit. apply uniform_matches; assumption. Qed.
End Uniform.

Section Elements.
Variables (K : kcfg) (P : list pitem) (r : crule).
Hypothesis Hdom : sdom K P r = true.
Let refs := referenced r.
Let cats := flat_map (fun rf => ri_cats (rr_info rf)) refs.

Lemma sdom_uniform : uniform P r = true.
Proof. exact (proj2 (andb_prop _ _ Hdom)). Qed.

Lemma spelled (am : str * list (str * nat * str)) (e : str * nat * str) rf :
  In am (r_aliases r) -> In e (snd am) -> In rf refs ->
  str_eqb (fst (fst e)) (rr_ref rf) = Nat.eqb (snd (fst e)) (rr_doc rf).
Proof.
  destruct (andb_prop _ _ Hdom) as [Hs _]. unfold aliases_spelled in Hs. intros Ham He Hrf.
  rewrite forallb_forall in Hs. specialize (Hs am Ham). rewrite forallb_forall in Hs. specialize (Hs e He).
  rewrite forallb_forall in Hs. exact (eqb_prop _ _ (Hs rf Hrf)).
Qed.

Local Notation anode a fl := (E (lit "a") [E (lit "al") (txt a); E (lit "f") (txt fl)]).

(* selecting an alias's entries by document and renaming them for that rule is selecting the
   renamed entries by spelling *)
Lemma alias_norm_entry (am am' : str * list (str * nat * str)) rf :
  In rf refs -> In am (r_aliases r) -> al_rel (ren1 P cats) am am' ->
  mapM (fun e : str * nat * str =>
          obind (ren1 P (ri_cats (rr_info rf)) (snd e)) (fun fl => Ok (anode (fst am) fl)))
       (filter (fun e : str * nat * str => Nat.eqb (snd (fst e)) (rr_doc rf)) (snd am))
  = Ok (flat_map (fun e : str * nat * str =>
                    if str_eqb (fst (fst e)) (rr_ref rf) then [anode (fst am') (snd e)] else [])
                 (snd am')).
Proof.
  intros Hrf Ham [<- Hents].
  pose proof (fun e He => spelled am e rf Ham He Hrf) as Hsp.
  induction Hents as [|e e' q q' [He1 He2] _ IH]; [reflexivity|].
  cbn [filter flat_map]. rewrite <- He1, <- (Hsp e (or_introl eq_refl)).
  specialize (IH (fun x Hx => Hsp x (or_intror Hx))).
  destruct (str_eqb (fst (fst e)) (rr_ref rf)); [|exact IH].
  cbn [mapM]. rewrite (eq_trans (ren1_own P r sdom_uniform rf _ Hrf) He2). cbn [obind]. rewrite IH. reflexivity.
Qed.

Lemma alias_norm_eq als' rf : In rf refs -> Forall2 (al_rel (ren1 P cats)) (r_aliases r) als' ->
  exp_norm K P (r_aliases r) rf = norm_nodes K als' rf.
Proof.
  intros Hrf HA. unfold exp_norm, norm_nodes.
  rewrite (mapM_Forall2 _ _ _ _ _ HA (fun am am' => alias_norm_entry am am' rf Hrf)).
  cbn [obind]. rewrite <- flat_map_concat_map. destruct HA; reflexivity.
Qed.

Lemma alias_norm_eq_queries {A} (k : rref * list node -> list node -> outcome A) als' :
  Forall2 (al_rel (ren1 P cats)) (r_aliases r) als' ->
  mapM (fun rq => obind (exp_norm K P (r_aliases r) (fst rq)) (k rq)) (exp_pairs K refs) =
  mapM (fun rq => obind (norm_nodes K als' (fst rq)) (k rq)) (ref_queries K refs).
Proof.
  intros HA. apply mapM_ext_in. intros rq Hrq.
  rewrite (alias_norm_eq als' (fst rq) (proj1 (ref_queries_in _ _ _ Hrq)) HA). reflexivity.
Qed.

Lemma alias_check (c : str * nat * str -> list str) als' :
  (forall e x, ren1 P (c e) x = ren1 P cats x) -> Forall2 (al_rel (ren1 P cats)) (r_aliases r) als' ->
  mapM (fun am : str * list (str * nat * str) => mapM (fun e => ren1 P (c e) (snd e)) (snd am)) (r_aliases r)
  = Ok (map (fun am' : str * list (str * nat * str) => map snd (snd am')) als').
Proof.
  intros Hc HA. apply (mapM_Forall2 _ _ _ _ _ HA). intros am am' _ [_ He].
  apply (mapM_Forall2 _ _ _ _ _ He). intros e e' _ [_ Hr]. rewrite Hc. exact Hr.
Qed.

Lemma ren1_found d x :
  ren1 P (match find (fun rf => Nat.eqb (rr_doc rf) d) refs with
          | Some rf => ri_cats (rr_info rf)
          | None => cats
          end) x = ren1 P cats x.
Proof.
  destruct (find _ refs) as [rf|] eqn:Ef; [|reflexivity]. apply find_some in Ef as [Hrf _]. exact (ren1_own P r sdom_uniform rf x Hrf).
Qed.

Lemma fieldref_eq f f' : cf_rel (ren1 P cats) f f' -> exp_fieldref P cats f = Ok f'.
Proof.
  destruct f as [|x|l], f' as [|y|l']; simpl; try tauto.
  - intros ->. reflexivity.
  - intros H. rewrite (mapM_Forall2 _ _ (fun y => y) _ _ H (fun _ _ _ Hy => Hy)), map_id. reflexivity.
Qed.

Theorem elements t : convc K P r = Ok t -> expected K P r = Ok (normalize (first_id r) t).
Proof.
  unfold convc. fold refs cats. destruct (parse_ts (r_ts r)) as [ts|] eqn:Ets; [|discriminate]. intros H.
  apply obind_ok in H as (st & Hst & H). apply obind_ok in H as (sr & Hsr & H). apply obind_ok in H as (ag & Hag & <-%Ok_inj).
  unfold aggregate in Hag. rewrite pct_match in Hag.
  destruct (pct_missing (r_type r) (the_cond r)) eqn:Hpct; [discriminate|]. apply Ok_inj in Hag as <-.
  apply run_pipeline_spec in Hst as (HF & HA & HG & HC). cbn [ps_fields ps_aliases ps_gb ps_cf] in *.
  apply search_norm in Hsr. unfold search_multi in Hsr. apply obind_ok in Hsr as (entries & Hent & Hsr%Ok_inj).
  rewrite normalize_query, typing_norm. unfold first_id. fold refs. rewrite <- Hsr, HG, HF.
  rewrite (flat_map_ext _ _ (fun rf => ref_fields_spec P (ri_cats (rr_info rf)) (ri_fields (rr_info rf)))).
  unfold expected. fold refs cats. rewrite Ets.
  (* the binds of `expected` in turn: the alias check, the search entries, the condition field, the percentile *)
  rewrite (alias_check _ _ (fun e => ren1_found (snd (fst e))) HA). cbn [obind].
  rewrite (alias_norm_eq_queries _ _ HA), Hent. cbn [obind].
  replace (match the_cond r with CBasic _ _ f _ => exp_fieldref P cats f | CExt _ => Ok FNone end) with (Ok (ps_cf st))
    by (symmetry; destruct (the_cond r); exact (fieldref_eq _ _ HC)).
  cbn [obind].
  rewrite pct_match, Hpct. cbn [obind].
  unfold condition. destruct (the_cond r); reflexivity.
Qed.
End Elements.

(* a well-formed element; elems_ok l is forallb elem l, with elem written out *)
Definition elem (n : node) : bool := negb (is_text n) && wfn n.
Definition elems_ok (l : list node) : bool := forallb (fun n => negb (is_text n) && wfn n) l.

Lemma wfl_elems l : elems_ok l = true -> wfl l = true.
Proof.
  induction l as [|x l IH]; intros H; [reflexivity|].
  simpl in H. apply andb_true_iff in H as [Hx Hl]. apply andb_true_iff in Hx as [Ht Hw].
  apply negb_true_iff in Ht. rewrite wfl_cons, Hw, (IH Hl), Ht. reflexivity.
Qed.
Lemma elems_ok_app a b : elems_ok (a ++ b) = elems_ok a && elems_ok b.
Proof. apply forallb_app. Qed.
Lemma elems_app a b : elems_ok a = true -> elems_ok b = true -> elems_ok (a ++ b) = true.
Proof. intros Ha Hb. rewrite elems_ok_app, Ha, Hb. reflexivity. Qed.
Lemma elems_cons x l : elem x = true -> elems_ok l = true -> elems_ok (x :: l) = true.
Proof. intros Hx Hl. exact (andb_true_intro (conj Hx Hl)). Qed.
Lemma elems_map {A} (f : A -> node) l : (forall x, In x l -> elem (f x) = true) -> elems_ok (map f l) = true.
Proof. intros H. apply forallb_forall. intros n Hn. apply in_map_iff in Hn as (x & <- & Hx). exact (H x Hx). Qed.
Lemma elem_E tag kids : clean_tag tag = true -> wfl kids = true -> elem (E tag kids) = true.
Proof. intros Ht Hk. unfold elem. rewrite wfn_E, Ht, Hk. reflexivity. Qed.
Lemma wfl_txt s : clean s = true -> wfl (txt s) = true.
Proof. destruct s as [|c s]; intros H; [reflexivity|]. cbn [txt wfl wfn]. rewrite H. reflexivity. Qed.
Lemma wfl_frame pre suf n : clean pre = true -> clean suf = true -> elem n = true ->
  wfl (txt pre ++ [n] ++ txt suf) = true.
Proof.
  intros Hp Hs Hn. apply andb_true_iff in Hn as [Ht Hw]. apply negb_true_iff in Ht.
  destruct pre as [|c p], suf as [|d s]; cbn [txt app wfl wfn is_text]; rewrite ?Hp, ?Hs, ?Hw, ?Ht; reflexivity.
Qed.

Lemma forallb_flat_map {A B} (p : A -> bool) (q : B -> bool) f l :
  (forall x, p x = true -> forallb q (f x) = true) -> forallb p l = true -> forallb q (flat_map f l) = true.
Proof.
  intros Hf. induction l as [|x l IH]; simpl; [auto|].
  rewrite forallb_app, andb_true_iff. intros [Hx Hl]. rewrite (Hf x Hx). auto.
Qed.

Lemma Forall2_forallb {A B} (R : A -> B -> Prop) (q : B -> bool) l l' :
  (forall a b, In a l -> R a b -> q b = true) -> Forall2 R l l' -> forallb q l' = true.
Proof.
  intros H HF. induction HF as [|a b l l' Hab _ IH]; [reflexivity|]. simpl.
  rewrite (H a b (or_introl eq_refl) Hab), IH; [reflexivity|]. intros x y Hx. apply H. right. exact Hx.
Qed.

Lemma dec_clean z : clean (dec_of_Z z) = true.
Proof.
  assert (H : forall u, clean (str_of_uint u) = true) by (induction u; simpl; auto).
  unfold dec_of_Z. destruct (Z.to_int z); [apply H|]. rewrite clean_cons, H. reflexivity.
Qed.
Lemma quote_clean f : clean f = true -> clean (quote_field f) = true.
Proof.
  intros H. unfold quote_field. destruct f as [|c f]; [reflexivity|].
  destruct (forallb is_word (c :: f)); [exact H|]. rewrite clean_cons, clean_app, H. reflexivity.
Qed.
Lemma field_text_clean f : clean_fieldref f = true -> clean (field_text f) = true.
Proof.
  destruct f as [|x|l]; simpl; intros H; auto.
  rewrite clean_cons, clean_app, (join_all clean _ _ eq_refl clean_app); [reflexivity|reflexivity|].
  rewrite forallb_forall in *. intros y Hy. apply in_map_iff in Hy as (x & <- & Hx).
  rewrite clean_cons, clean_app, (H x Hx). reflexivity.
Qed.
Lemma render_ts_clean m spec t : clean spec = true -> clean (render_ts m spec t) = true.
Proof.
  intros H. destruct m; cbn [render_ts]; auto using dec_clean.
  destruct (ts_map (t_unit t)) as [x|] eqn:Ex; [|exact H]. rewrite clean_app, dec_clean.
  revert Ex. unfold ts_map. repeat destruct (_ =? _); intros [= <-]; reflexivity.
Qed.
Lemma ctag_clean pre ty ext : clean_tag pre = true -> clean_tag (pre ++ ctag ty ext) = true.
Proof. intros H. unfold clean_tag in *. rewrite existsb_app, negb_orb, H. destruct ty, ext; reflexivity. Qed.
Lemma op_text_clean o : clean (op_text o) = true.
Proof. destruct o; reflexivity. Qed.

(* A template is elements with literal tags around clean text or further elements: its well-formedness
   is found by these rules alone, given the cleanliness of the names it is filled with.  The depth of the search
   is the longest chain of rules a template needs (11, in aggregate_ok); one that nests deeper needs more. *)
Create HintDb wf.
#[local] Hint Resolve wfl_elems elems_app elems_cons elems_map elem_E wfl_txt
  dec_clean quote_clean field_text_clean ctag_clean op_text_clean : wf.
#[local] Hint Extern 0 (clean_tag (lit _) = true) => reflexivity : wf.
#[local] Hint Extern 0 (elems_ok [] = true) => reflexivity : wf.
#[local] Hint Extern 0 (clean [] = true) => reflexivity : wf.
Local Ltac wf := auto 12 with wf nocore.

(* the invariant of the pipeline: every name in the state is bracket-free.  The third conjunct of clean_rule
   is forallb clean_alias (r_aliases r) with clean_alias written out; convc_wf passes one for the other *)
Definition clean_alias (am : str * list (str * nat * str)) : bool :=
  clean (fst am) && forallb (fun e : str * nat * str => clean (snd e)) (snd am).
Definition clean_state (st : pstate) : Prop :=
  forallb clean (ps_fields st) = true /\ forallb clean_alias (ps_aliases st) = true /\
  forallb clean (match ps_gb st with Some g => g | None => [] end) = true /\ clean_fieldref (ps_cf st) = true.

Lemma al_rel_clean g l l' : (forall x y, g x = Ok y -> clean x = true -> clean y = true) ->
  Forall2 (al_rel g) l l' -> forallb clean_alias l = true -> forallb clean_alias l' = true.
Proof.
  intros Hg HA Hl. rewrite forallb_forall in Hl. eapply Forall2_forallb; [|exact HA].
  intros am am' Hin [Hn He]. apply Hl, andb_true_iff in Hin as [Ha Hes]. rewrite forallb_forall in Hes.
  unfold clean_alias. rewrite <- Hn, Ha. eapply Forall2_forallb; [|exact He].
  intros e e' Hine [_ Hr]. exact (Hg _ _ Hr (Hes e Hine)).
Qed.

Lemma cf_rel_clean g c c' : (forall x y, g x = Ok y -> clean x = true -> clean y = true) ->
  cf_rel g c c' -> clean_fieldref c = true -> clean_fieldref c' = true.
Proof.
  intros Hg. destruct c as [|x|l], c' as [|y|l']; simpl; try tauto; [apply Hg|].
  intros HC Hl. rewrite forallb_forall in Hl. eapply Forall2_forallb; [|exact HC].
  intros x y Hx Hr. exact (Hg _ _ Hr (Hl x Hx)).
Qed.

Lemma apply_name_clean f x : clean_fmap f = true -> clean x = true -> forallb clean (apply_name f x) = true.
Proof.
  destruct f as [l|p|s]; simpl; intros Hf Hx; rewrite ?clean_app, ?Hf, ?Hx; try reflexivity.
  destruct (assoc x l) as [ys|] eqn:Ea; [|simpl; rewrite Hx; reflexivity].
  apply alookup_In in Ea. rewrite forallb_forall in Hf. exact (Hf _ Ea).
Qed.

Lemma step_clean f st st' : (forall x, clean x = true -> forallb clean (f x) = true) ->
  step f st = Ok st' -> clean_state st -> clean_state st'.
Proof.
  intros Hf H (Hfs & Hals & Hgb & Hcf). unfold clean_state. apply step_spec in H as (-> & HA & -> & HC).
  assert (H1 : forall x y, single (f x) = Ok y -> clean x = true -> clean y = true).
  { intros x y Hy Hx. apply Hf in Hx. rewrite (single_eq _ _ Hy) in Hx. apply andb_true_iff in Hx as [Hx _]. exact Hx. }
  split; [|split; [|split]].
  - exact (forallb_flat_map _ _ _ _ Hf Hfs).
  - exact (al_rel_clean _ _ _ H1 HA Hals).
  - destruct (ps_gb st); [|reflexivity]. refine (forallb_flat_map _ _ _ _ _ Hgb). intros x Hx.
    destruct (mem_str x _); [simpl; rewrite Hx; reflexivity | exact (Hf x Hx)].
  - exact (cf_rel_clean _ _ _ H1 HC Hcf).
Qed.

Lemma run_pipeline_clean P cats : forallb (fun it => clean_fmap (pi_f it)) P = true ->
  forall st st', run_pipeline P cats st = Ok st' -> clean_state st -> clean_state st'.
Proof.
  induction P as [|it P IH]; simpl; intros HP st st' H Hst; [apply Ok_inj in H as <-; exact Hst|].
  apply andb_true_iff in HP as [Hit HP]. destruct (matches it cats); [|eauto].
  apply obind_ok in H as (st1 & H1 & H2). apply (IH HP _ _ H2).
  exact (step_clean _ _ _ (fun x => apply_name_clean _ x Hit) H1 Hst).
Qed.

Lemma ref_fields_clean P cats fs : forallb (fun it => clean_fmap (pi_f it)) P = true ->
  forallb clean fs = true -> forallb clean (ref_fields P cats fs) = true.
Proof.
  intros HP Hfs. refine (proj1 (run_pipeline_clean P cats HP _ _ (ref_fields_run P cats fs) _)).
  exact (conj Hfs (conj eq_refl (conj eq_refl eq_refl))).
Qed.

Lemma uniq_acc_in seen l x : In x (uniq_acc seen l) -> In x l.
Proof.
  revert seen. induction l as [|a l IH]; simpl; intros seen H; [exact H|].
  destruct (mem_str a seen); [|destruct H as [H|H]]; eauto.
Qed.
Lemma all_fields_in gb fs x : In x (all_fields gb fs) -> In x fs.
Proof. intros H. apply uniq_acc_in, filter_In in H. apply H. Qed.

Section WF.
Variables (K : kcfg) (P : list pitem) (r : crule) (st : pstate) (tstext : str).
Let refs := referenced r.
Hypothesis Hrefs : forallb (fun rf => clean_info (rr_info rf)) refs = true.
Hypothesis Hst : clean_state st.
Hypothesis Hts : clean tstext = true.
Hypothesis Hx : forallb (fun rf => clean (rr_ref rf)) (r_xrefs r) = true.
Hypothesis HP : forallb (fun it => clean_fmap (pi_f it)) P = true.

Lemma info_parts rf : In rf refs ->
  forallb wfl (ri_raw (rr_info rf)) = true /\ forallb wfl (ri_fin (rr_info rf)) = true /\
  clean (ruleid (rr_info rf)) = true /\ forallb clean (ri_fields (rr_info rf)) = true.
Proof.
  intros H. rewrite forallb_forall in Hrefs.
  apply Hrefs, andb_true_iff in H as [[[H1 H2]%andb_true_iff H3]%andb_true_iff H4]. auto.
Qed.

Lemma embed_wfl rf q : In rf refs -> In q (embed K (rr_info rf)) -> wfl q = true.
Proof.
  intros Hrf. destruct (info_parts rf Hrf) as (H1 & H2 & _). rewrite forallb_forall in H1, H2.
  unfold embed. destruct (k_finalize K); auto.
Qed.

Lemma query_parts rq : In rq (ref_queries K refs) -> clean (ruleid (rr_info (fst rq))) = true /\ wfl (snd rq) = true.
Proof.
  intros H. apply ref_queries_in in H as [Hrf Hq]. split; [apply (info_parts _ Hrf) | exact (embed_wfl _ _ Hrf Hq)].
Qed.

Lemma alias_norm_wf rf n : norm_nodes K (ps_aliases st) rf = Ok n -> wfl n = true.
Proof.
  destruct Hst as (_ & Hals & _). unfold norm_nodes.
  destruct (ps_aliases st) as [|am0 l0]; [intros <-%Ok_inj; reflexivity|].
  destruct (negb (k_norm K)); [discriminate|]. intros <-%Ok_inj.
  apply wfl_elems. refine (forallb_flat_map _ _ _ _ _ Hals). intros am Ham. apply andb_true_iff in Ham as [Ha He].
  refine (forallb_flat_map _ _ _ _ _ He). intros e Hc. destruct (str_eqb _ _); [|reflexivity].
  apply elems_cons; wf.
Qed.

Lemma search_ok sr : search K (ps_aliases st) refs = Ok sr -> elem sr = true.
Proof.
  intros H. destruct (search_cases _ _ _ _ H) as [Hm | (r1 & q & n & Er & Eq & Hn & ->)].
  - unfold search_multi in Hm. apply obind_ok in Hm as (l & Hl & <-%Ok_inj).
    apply elem_E; [reflexivity|]. apply wfl_elems. refine (Forall2_forallb _ elem _ _ _ (traverse_rel _ _ _ _ Hl (fun _ _ _ H => H))).
    intros rq nd Hrq Hnd. apply obind_ok in Hnd as (n & Hn & <-%Ok_inj).
    destruct (query_parts rq Hrq) as [Hid Hq]. apply alias_norm_wf in Hn. wf.
  - assert (Hq : wfl q = true) by (apply (embed_wfl r1); [rewrite Er | rewrite Eq]; left; reflexivity).
    apply alias_norm_wf in Hn. wf.
Qed.

Lemma typing_ok : elems_ok (typing K refs) = true.
Proof.
  unfold typing. destruct (k_typing K); [|reflexivity]. apply elems_cons; [|reflexivity].
  apply elem_E; [reflexivity|]. apply wfl_elems, elems_map. intros rq Hrq.
  destruct (query_parts rq Hrq) as [Hid Hq]. wf.
Qed.

Lemma rids_ok : elems_ok (rids refs) = true.
Proof. apply elems_map. intros rf Hrf. destruct (info_parts _ Hrf) as (_ & _ & Hid & _). wf. Qed.

Lemma groupby_ok : elems_ok (groupby_nodes K (ps_gb st)) = true.
Proof.
  destruct Hst as (_ & _ & Hgb & _). unfold groupby_nodes.
  destruct (ps_gb st) as [g|]; [|destruct (k_nofield K); reflexivity].
  rewrite forallb_forall in Hgb. wf.
Qed.

Lemma fields_ok fs : forallb clean fs = true -> elems_ok (fields_nodes K (ps_gb st) fs) = true.
Proof.
  intros Hc. rewrite forallb_forall in Hc. unfold fields_nodes. destruct (k_fields K); [|reflexivity].
  pose proof (all_fields_in (ps_gb st) fs) as Hin.
  destruct (all_fields (ps_gb st) fs) as [|a l]; [reflexivity|]. wf.
Qed.

Lemma reffields_clean :
  forallb clean (flat_map (fun rf => ref_fields P (ri_cats (rr_info rf)) (ri_fields (rr_info rf))) refs ++ ps_fields st) = true.
Proof.
  destruct Hst as (Hfs & _). rewrite forallb_app, Hfs, andb_true_r.
  refine (forallb_flat_map _ _ _ _ _ Hrefs). intros rf Hrf. apply andb_true_iff in Hrf as [_ Hf].
  exact (ref_fields_clean P _ _ HP Hf).
Qed.

#[local] Hint Resolve rids_ok groupby_ok fields_ok reffields_clean : wf.

Lemma aggregate_ok c ag : aggregate K P r st c refs tstext = Ok ag -> elem ag = true.
Proof.
  unfold aggregate. rewrite pct_match. destruct (pct_missing _ _); [discriminate|]. intros <-%Ok_inj.
  destruct Hst as (_ & _ & _ & Hcf).
  assert (clean (match c with CBasic _ _ _ _ => field_text (ps_cf st) | CExt _ => [] end) = true)
    by (destruct c; wf).
  assert (clean (match c with CBasic _ _ _ (Some p) => dec_of_Z p | _ => [] end) = true)
    by (destruct c as [? ? ? [?|]|]; wf).
  wf.
Qed.

Lemma xnodes_wf t : wfl (xnodes (k_cfg K) (r_xrefs r) t) = true.
Proof.
  unfold xnodes. apply wfl_merge. intros n Hn. apply in_map_iff in Hn as (tk & <- & _).
  destruct tk as [a ng | d f l | o | | ]; try destruct o; try reflexivity.
  cbn [tok_node]. rewrite wfn_E. apply wfl_txt. rewrite forallb_forall in Hx.
  destruct (nth_in_or_default a (r_xrefs r) no_ref) as [Hin | ->]; [exact (Hx _ Hin)|reflexivity].
Qed.

Lemma condition_ok c : elem (condition K r st c refs) = true.
Proof.
  destruct Hst as (_ & _ & _ & Hcf). pose proof xnodes_wf. unfold condition. destruct c; wf.
Qed.
End WF.

Theorem convc_wf K P r t : clean_rule r = true -> forallb (fun it => clean_fmap (pi_f it)) P = true ->
  convc K P r = Ok t -> wfl t = true.
Proof.
  intros Hc HP. unfold convc. destruct (parse_ts (r_ts r)) as [ts|]; [|discriminate]. intros H.
  apply obind_ok in H as (st & Hst & H). apply obind_ok in H as (sr & Hsr & H). apply obind_ok in H as (ag & Hag & <-%Ok_inj).
  apply andb_true_iff in Hc as [[[[[[Cts Cgb]%andb_true_iff Cal]%andb_true_iff Cfs]%andb_true_iff Ccf]%andb_true_iff
                                  Crefs]%andb_true_iff Cx].
  apply (run_pipeline_clean _ _ HP) in Hst; [|exact (conj Cfs (conj Cal (conj Cgb Ccf)))].
  apply (render_ts_clean (k_ts K) _ ts) in Cts.
  apply wfl_frame; [unfold fin_pre; destruct (k_post K); reflexivity | unfold fin_suf; destruct (k_post K); reflexivity |].
  apply elem_E; [destruct (k_own_frame K); [apply (ctag_clean (lit "Q."))|]; reflexivity|].
  apply search_ok in Hsr; [|assumption..]. apply aggregate_ok in Hag; [|assumption..].
  pose proof (typing_ok K r Crefs). pose proof (condition_ok K r st Crefs Hst Cx (the_cond r)).
  pose proof (groupby_ok K st Hst). wf.
Qed.

Theorem readback K P r t : dom K P r = true -> convc K P r = Ok t ->
  exists t', readc (showc t) = Some t' /\ expected K P r = Ok (normalize (first_id r) t').
Proof.
  intros [[H1 H2]%andb_true_iff H3]%andb_true_iff Hc. exists t. split.
  - apply btree_read_show. exact (convc_wf K P r t H1 H2 Hc).
  - exact (elements K P r H3 t Hc).
Qed.

Theorem mapping_consistent K P r st :
  sdom K P r = true ->
  run_pipeline P (flat_map (fun rf => ri_cats (rr_info rf)) (referenced r))
    {| ps_fields := r_fields r; ps_aliases := r_aliases r; ps_gb := r_gb r;
       ps_cf := match the_cond r with CBasic _ _ f _ => f | CExt _ => FNone end |} = Ok st ->
  Forall2 (fun am am' : str * list (str * nat * str) =>
             fst am = fst am' /\
             Forall2 (fun e e' : str * nat * str =>
                        fst e = fst e' /\
                        forall rf, In rf (referenced r) ->
                                   ref_fields P (ri_cats (rr_info rf)) [snd e] = [snd e'])
                     (snd am) (snd am'))
          (r_aliases r) (ps_aliases st)
  /\ match the_cond r, ps_cf st with
     | CBasic _ _ (FOne x) _, FOne y =>
         forall rf, In rf (referenced r) -> ref_fields P (ri_cats (rr_info rf)) [x] = [y]
     | _, _ => True
     end.
Proof.
  intros [_ Hu]%andb_prop H. apply run_pipeline_spec in H as (_ & HA & _ & HC). cbn [ps_aliases ps_cf] in *.
  (* the one new name of a field in the correlation rule is its new name in each referenced rule *)
  pose proof (fun x y rf Hrf H => ren1_ref_fields P _ x y (eq_trans (ren1_own P r Hu rf x Hrf) H)) as Hren. split.
  - revert HA. apply Forall2_mono. intros am am' [Hn He]. split; [exact Hn|].
    revert He. apply Forall2_mono. intros e e' [H1 H2]. split; [exact H1|]. eauto.
  - destruct (the_cond r) as [o cnt [|x|l] pct|tx], (ps_cf st) as [|y|l']; simpl in HC; eauto.
Qed.

Definition K0 : kcfg :=
  {| k_cfg := {| lvl := lvl_std; parenthesize := false; or_in := false; and_in := false; in_wild := false; not_eq := false |};
     k_single := false; k_norm := true; k_typing := false; k_ts := TsMap; k_nofield := false; k_fields := false;
     k_finalize := false; k_own_frame := true; k_post := false |}.
Definition info_a : rinfo :=
  {| ri_name := Some (lit "rule_a"); ri_id := Some (lit "0e95725d-7320-415d-80f7-004da920fc11"); ri_corr := false;
     ri_raw := [[T (lit "u=1")]]; ri_fin := [[T (lit "F:u=1:F")]]; ri_fields := [lit "u"]; ri_cats := [lit "c"] |}.
Definition info_b : rinfo :=
  {| ri_name := Some (lit "rule_b"); ri_id := Some (lit "a0e95725-7320-415d-80f7-004da920fc22"); ri_corr := false;
     ri_raw := [[T (lit "u=2")]]; ri_fin := [[T (lit "F:u=2:F")]]; ri_fields := []; ri_cats := [lit "d"] |}.
Definition info_n : rinfo :=
  {| ri_name := Some (lit "corr_n"); ri_id := None; ri_corr := true;
     ri_raw := [[E (lit "Q.default") []]]; ri_fin := [[T (lit "F:"); E (lit "Q.default") []; T (lit ":F")]];
     ri_fields := []; ri_cats := [lit "c"] |}.
Definition rule0 (rules : list rref) (als : list (str * list (str * nat * str))) : crule :=
  {| r_type := TEventCount; r_rules := Some rules; r_ts := lit "5m"; r_gb := Some [lit "al"]; r_aliases := als;
     r_cond := Some (CBasic OpGte 2%Z FNone None); r_fields := []; r_xrefs := [] |}.

Definition r_good : crule :=
  rule0 [{| rr_ref := lit "rule_a"; rr_doc := 0; rr_info := info_a |}; {| rr_ref := lit "rule_b"; rr_doc := 1; rr_info := info_b |}]
        [(lit "al", [(lit "rule_a", 0%nat, lit "u"); (lit "rule_b", 1%nat, lit "u")])].
Definition P_good : list pitem := [{| pi_f := FMap [(lit "u", [lit "mu"])]; pi_cat := None |}].

(* the rule is referenced by id, its alias entry by name *)
Definition r_other_id : crule :=
  rule0 [{| rr_ref := lit "0e95725d-7320-415d-80f7-004da920fc11"; rr_doc := 0; rr_info := info_a |}]
        [(lit "al", [(lit "rule_a", 0%nat, lit "u")])].
Theorem alias_other_identifier_refuted :
  exists K P r t, clean_rule r = true /\ convc K P r = Ok t /\ expected K P r <> Ok (normalize (first_id r) t).
Proof. exists K0, [], r_other_id. eexists. split; [reflexivity|]. split; [vm_compute; reflexivity|]. vm_compute. discriminate. Qed.

(* a renaming conditioned on log source category c; rule_b has category d *)
Definition P_cond : list pitem := [{| pi_f := FMap [(lit "u", [lit "mu"])]; pi_cat := Some (lit "c") |}].
Theorem conditioned_renaming_refuted :
  exists K P r t, clean_rule r = true /\ convc K P r = Ok t /\ expected K P r <> Ok (normalize (first_id r) t).
Proof. exists K0, P_cond, r_good. eexists. split; [reflexivity|]. split; [vm_compute; reflexivity|]. vm_compute. discriminate. Qed.

(* an extended condition that names rule_b by its id written without hyphens: the atoms of the
   printed condition cannot be matched with the tags of the search part *)
Definition r_hex : crule :=
  {| r_type := TTemporal; r_rules := None; r_ts := lit "5m"; r_gb := None; r_aliases := [];
     r_cond := Some (CExt (CBin BAnd [CAtom KOther None false 0; CNot (CAtom KOther None false 1)]));
     r_fields := [];
     r_xrefs := [{| rr_ref := lit "rule_a"; rr_doc := 0; rr_info := info_a |};
                 {| rr_ref := lit "a0e957257320415d80f7004da920fc22"; rr_doc := 1; rr_info := info_b |}] |}.
Theorem extended_reference_spelling_refuted :
  exists K r t xn, convc K [] r = Ok t /\ find_x t = Some xn /\
                   lex_nodes (map (fun rf => ruleid (rr_info rf)) (referenced r)) xn = None.
Proof. exists K0, r_hex. eexists. eexists. split; [vm_compute; reflexivity|]. split; vm_compute; reflexivity. Qed.

(* a referenced correlation rule on a backend that did not ask for finalised sub-queries: inside the
   domain since convert_correlation_rule stores the raw query for referring rules *)
Definition r_nested : crule := rule0 [{| rr_ref := lit "corr_n"; rr_doc := 0; rr_info := info_n |}] [].

Lemma premises_inhabited :
  dom K0 P_good r_good = true /\ (exists t, convc K0 P_good r_good = Ok t) /\
  dom K0 [] r_hex = true /\ cfg_ok (k_cfg K0) = true /\
  dom K0 [] r_nested = true /\ (exists t, convc K0 [] r_nested = Ok t).
Proof.
  split; [vm_compute; reflexivity|]. split; [eexists; vm_compute; reflexivity|].
  split; [vm_compute; reflexivity|]. split; [vm_compute; reflexivity|].
  split; [vm_compute; reflexivity|]. eexists; vm_compute; reflexivity.
Qed.
