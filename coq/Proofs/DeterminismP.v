(* C20 - the sites of Model/Determinism.v where a set is iterated do not depend on the iteration order: ord O l
   and ord O' l are permutations of each other (ord_ord_perm), and each site computes from the iteration
   something invariant under permutation - a sorted list, a fold of commuting steps, the one element that
   passes a test. Where the code before a repair, or with a weakened check, computed something else, two
   orders that differ refute it. *)
From Coq Require Import NArith List Permutation Sorted.
From PS Require Import Base.Chars Model.Determinism Proofs.CharsP.
Import ListNotations.
Open Scope N_scope.

(* PipelineP (C14) applies sortedP, isort_sorted, isort_perm_self, sorted_unique and the str_leb lemmas, by
   conversion, to the copies of insert, isort and str_leb in Spec/AbsPipeline.v: leb stays the explicit first
   argument, and sorted_unique asks antisymmetry of the elements of the list only (the order of C14 has it only
   there), which is why it stands before Hypothesis leb_antisym. *)
Section SortP.
  Context {A : Type} (leb : A -> A -> bool).
  Hypothesis leb_total : forall x y, leb x y = true \/ leb y x = true.
  Hypothesis leb_trans : forall x y z, leb x y = true -> leb y z = true -> leb x z = true.

  Lemma insert_perm x l : Permutation (insert leb x l) (x :: l).
  Proof.
    induction l as [|y r IH]; simpl; [reflexivity|].
    destruct (leb x y); [reflexivity|]. rewrite IH. apply perm_swap.
  Qed.

  Lemma isort_perm_self l : Permutation (isort leb l) l.
  Proof. induction l as [|x r IH]; simpl; [constructor|]. rewrite insert_perm. apply perm_skip, IH. Qed.

  Definition sortedP := StronglySorted (fun x y => leb x y = true).

  Lemma insert_sorted x l : sortedP l -> sortedP (insert leb x l).
  Proof.
    induction 1 as [|y r Hr IH Hy]; simpl; [repeat constructor|].
    destruct (leb x y) eqn:E.
    - constructor; [constructor; assumption|]. constructor; [exact E|].
      eapply Forall_impl; [|exact Hy]. intros z. apply leb_trans, E.
    - assert (Hyx : leb y x = true) by (destruct (leb_total x y); congruence).
      constructor; [exact IH|].
      apply (Permutation_Forall (Permutation_sym (insert_perm x r))). constructor; assumption.
  Qed.

  Lemma isort_sorted l : sortedP (isort leb l).
  Proof. induction l; simpl; [constructor | apply insert_sorted; assumption]. Qed.

  Lemma sorted_unique l : forall l', sortedP l -> sortedP l' -> Permutation l l' ->
    (forall x y, In x l -> In y l -> leb x y = true -> leb y x = true -> x = y) -> l = l'.
  Proof.
    induction l as [|x r IH]; intros [|y r'] Hs Hs' Hp Ha; [reflexivity | | |].
    1,2: apply Permutation_length in Hp; discriminate.
    apply StronglySorted_inv in Hs as [Hr Hx], Hs' as [Hr' Hy]. rewrite Forall_forall in Hx, Hy.
    (* unless the heads are equal, each lies in the other list's tail, hence above the other head *)
    assert (x = y).
    { destruct (Permutation_in _ Hp (in_eq x r)) as [|H1]; [congruence|].
      destruct (Permutation_in _ (Permutation_sym Hp) (in_eq y r')) as [|H2]; [congruence|].
      apply Ha; simpl; auto. }
    subst y. f_equal. apply IH; auto using in_cons. eapply Permutation_cons_inv, Hp.
  Qed.

  Hypothesis leb_antisym : forall x y, leb x y = true -> leb y x = true -> x = y.

  Theorem isort_perm l l' : Permutation l l' -> isort leb l = isort leb l'.
  Proof.
    intros Hp. apply sorted_unique; try apply isort_sorted; [now rewrite !isort_perm_self | auto].
  Qed.
End SortP.

Lemma sorted_N_perm (l l' : list N) : Permutation l l' -> isort N.leb l = isort N.leb l'.
Proof. apply isort_perm; intros *; rewrite !N.leb_le; [apply N.le_ge_cases | apply N.le_trans | apply N.le_antisymm]. Qed.

Lemma str_leb_cons x a y b :
  str_leb (x :: a) (y :: b) = true <-> x < y \/ x = y /\ str_leb a b = true.
Proof.
  simpl. destruct (N.ltb_spec x y); [tauto|].
  destruct (N.eqb_spec x y); [intuition N.order | split; [discriminate | intuition N.order]].
Qed.
Lemma str_leb_total a : forall b, str_leb a b = true \/ str_leb b a = true.
Proof.
  induction a as [|x a IH]; intros [|y b]; auto.
  destruct (N.lt_trichotomy x y) as [|[->|]]; [left | destruct (IH b); [left | right] | right];
    apply str_leb_cons; auto.
Qed.
Lemma str_leb_antisym a : forall b, str_leb a b = true -> str_leb b a = true -> a = b.
Proof.
  induction a as [|x a IH]; intros [|y b]; try discriminate; [reflexivity|].
  intros H1 H2. apply str_leb_cons in H1 as [|[-> ?]], H2 as [|[? ?]]; try N.order. f_equal; auto.
Qed.
Lemma str_leb_trans a : forall b c, str_leb a b = true -> str_leb b c = true -> str_leb a c = true.
Proof.
  induction a as [|x a IH]; intros [|y b] [|z c]; try discriminate; [reflexivity..|].
  intros H1 H2. apply str_leb_cons.
  apply str_leb_cons in H1 as [|[-> ?]], H2 as [|[-> ?]]; [left; N.order | auto | auto | eauto].
Qed.

Lemma sorted_strs_perm l l' : Permutation l l' -> sorted_strs l = sorted_strs l'.
Proof. apply isort_perm; [apply str_leb_total | apply str_leb_trans | apply str_leb_antisym]. Qed.

(* smem, dedup (and lookup, nodupb) of the model are convertible with existsb (str_eqb x), sdedup (alookup,
   snodupb) of CharsP, whose lemmas apply to them as they are; one is stated again under the model's name
   where it is rewritten with, since rewrite does not see through the names *)
Lemma smem_In x l : smem x l = true <-> In x l.
Proof. exact (existsb_str_In x l). Qed.
Lemma dedup_In x l : In x (dedup l) <-> In x l.
Proof. exact (sdedup_In x l). Qed.

Definition same_set (t t' : list str) : Prop := forall x, In x t <-> In x t'.

Theorem norm_ext l l' : same_set l l' -> norm l = norm l'.
Proof.
  intros H. apply sorted_strs_perm.
  apply NoDup_Permutation; try apply sdedup_NoDup. intros x. rewrite !dedup_In. apply H.
Qed.
Lemma norm_perm l l' : Permutation l l' -> norm l = norm l'.
Proof. intros H. apply norm_ext. intros x. now rewrite H. Qed.
Lemma norm_In x l : In x (norm l) <-> In x l.
Proof. unfold norm, sorted_strs. now rewrite isort_perm_self, dedup_In. Qed.

Lemma lookup_app {V} k (a b : list (str * V)) :
  lookup k (a ++ b) = match lookup k a with Some v => Some v | None => lookup k b end.
Proof. exact (alookup_app k a b). Qed.

Lemma ord_ord_perm {A} O O' (l : list A) : Permutation (ord O l) (ord O' l).
Proof. now rewrite !ord_perm. Qed.

Lemma fold_left_perm {S X} (f : S -> X -> S) :
  (forall s x y, f (f s x) y = f (f s y) x) ->
  forall l l', Permutation l l' -> forall s, fold_left f l s = fold_left f l' s.
Proof.
  intros Hc l l' Hp. induction Hp; intros s; simpl; auto.
  - rewrite Hc. reflexivity.
  - rewrite IHHp1. apply IHHp2.
Qed.

Lemma find_filter {A} (P : A -> bool) l : find P l = hd_error (filter P l).
Proof. induction l as [|x l IH]; simpl; [reflexivity|]. destruct (P x); [reflexivity | exact IH]. Qed.

Lemma find_unique_perm {A} (P : A -> bool) l l' x :
  Permutation l' l -> filter P l = [x] -> find P l' = Some x.
Proof.
  intros Hp Hf. apply (filter_perm P) in Hp. rewrite Hf in Hp.
  rewrite find_filter, (Permutation_length_1_inv (Permutation_sym Hp)). reflexivity.
Qed.

Theorem sorted_join_order_free O O' s : sorted_join O s = sorted_join O' s.
Proof. unfold sorted_join. f_equal. apply sorted_strs_perm, ord_ord_perm. Qed.
Theorem unref_msg_order_free O O' keys refids : unref_msg O keys refids = unref_msg O' keys refids.
Proof. unfold unref_msg. now rewrite (sorted_join_order_free O O'). Qed.
Theorem corr_msg_order_free O O' u : corr_msg O u = corr_msg O' u.
Proof. unfold corr_msg. destruct (norm u); [reflexivity|]. now rewrite (sorted_join_order_free O O'). Qed.

Definition ord_id : order := {| ord := fun A l => l; ord_perm := fun A l => Permutation_refl l |}.
Definition ord_rev : order := {| ord := fun A l => rev l; ord_perm := fun A l => Permutation_sym (Permutation_rev l) |}.
Theorem unsorted_join_refuted : exists O O' s, unsorted_join O s <> unsorted_join O' s.
Proof. exists ord_id, ord_rev, [[97]; [98]]. vm_compute. discriminate. Qed.

Theorem py_flags_order_free O O' fl : py_flags O fl = py_flags O' fl.
Proof.
  apply fold_left_perm; [|apply ord_ord_perm].
  intros s x y. rewrite <- !N.lor_assoc. f_equal. apply N.lor_comm.
Qed.
Theorem flag_prefix_order_free O O' fl : flag_prefix O fl = flag_prefix O' fl.
Proof.
  unfold flag_prefix. destruct (flag_set fl) as [|f r]; [reflexivity|].
  do 2 f_equal. apply sorted_N_perm, Permutation_map, ord_ord_perm.
Qed.

Theorem dangling_names_order_free O O' d r : dangling_names O d r = dangling_names O' d r.
Proof. apply sorted_strs_perm, ord_ord_perm. Qed.
Theorem unknown_refs_order_free O O' r : unknown_refs O r = unknown_refs O' r.
Proof. apply sorted_strs_perm, ord_ord_perm. Qed.

(* the operator of a correlation condition: the check leaves exactly one operator key to be found *)
Theorem corr_from_dict_order_free O O' d : corr_from_dict O d = corr_from_dict O' d.
Proof.
  unfold corr_from_dict.
  destruct (filter (fun op => haskey op d) corr_ops) as [|x [|y r]] eqn:E; try reflexivity.
  rewrite !(find_unique_perm _ _ _ x (ord_perm _ _ _) E), (sorted_join_order_free O O'). reflexivity.
Qed.

Definition k_gte : str := [103;116;101].   (* gte *)
Definition k_lte : str := [108;116;101].   (* lte *)
Theorem corr_from_dict_weak_refuted : exists O O' d, corr_from_dict_weak O d <> corr_from_dict_weak O' d.
Proof. exists ord_id, ord_rev, [(k_gte, VInt [50]); (k_lte, VNull)]. vm_compute. discriminate. Qed.
