(* The encoding modifiers one by one: byte content of wide / utf16be / utf16 values, text of base64
   and base64offset values, what they reject, and that the loop of wide / utf16be ends in no other exception. *)
From Coq Require Import NArith List Bool Lia.
From PS Require Import Base.Chars Base.Outcome Model.SString Spec.Items Spec.Utf Spec.B64 Model.Enc
     Proofs.OutcomeP Proofs.SStringP Proofs.B64P Proofs.UtfP.
Import ListNotations.
Open Scope N_scope.

Lemma stream_app f a b : stream f (a ++ b) = stream f a ++ stream f b.
Proof. unfold stream. apply flat_map_app. Qed.
Lemma stream_lits f s : stream f (map Lit s) = map SB (flat_map f s).
Proof.
  induction s as [|c s IH]; [reflexivity|].
  cbn [map flat_map]. rewrite map_app, <- IH. reflexivity.
Qed.
Lemma vstream_cons p v : vstream (p :: v) = stream utf8_char (part_items p) ++ vstream v.
Proof. unfold vstream. rewrite items_cons, stream_app. reflexivity. Qed.

Lemma stream_all_lit f l : all_lit l = true -> stream f l = map SB (flat_map f (lits l)).
Proof.
  induction l as [|i l IH]; intros H; [reflexivity|].
  cbn [all_lit forallb] in H. apply andb_true_iff in H. destruct H as [Hi Hl].
  destruct i; try discriminate. cbn [stream flat_map lits app]. rewrite map_app. f_equal. apply IH, Hl.
Qed.

Lemma all_lit_app a b : all_lit (a ++ b) = all_lit a && all_lit b.
Proof. unfold all_lit. apply forallb_app. Qed.
Lemma all_lit_map_Lit s : all_lit (map Lit s) = true.
Proof. induction s; [reflexivity|]. exact IHs. Qed.
Lemma all_lit_items v : all_lit (items v) = negb (contains_special v) && negb (contains_placeholder v).
Proof.
  induction v as [|p v IH]; [reflexivity|].
  rewrite items_cons, all_lit_app, IH. unfold contains_special, contains_placeholder. cbn [existsb].
  destruct p; cbn [part_items]; rewrite ?all_lit_map_Lit; cbn; try reflexivity.
  rewrite andb_false_r. reflexivity.
Qed.

Lemma contains_placeholder_items v :
  contains_placeholder v = existsb (fun i => match i with Ph _ => true | _ => false end) (items v).
Proof.
  induction v as [|p v IH]; [reflexivity|].
  rewrite items_cons, existsb_app, <- IH. destruct p as [s| | |n]; try reflexivity.
  cbn [part_items]. induction s as [|c s IHs]; [reflexivity | exact IHs].
Qed.

Lemma iparse_no_ph s : forall n, ~ In (Ph n) (iparse s).
Proof.
  intros n H. pose proof (parse_placeholder_free true s) as F.
  rewrite contains_placeholder_items, parse_items in F.
  rewrite (proj2 (existsb_exists _ _)) in F; [discriminate|]. exists (Ph n). split; [exact H | reflexivity].
Qed.

Lemma lits_app a b : lits (a ++ b) = lits a ++ lits b.
Proof. unfold lits. apply flat_map_app. Qed.
Lemma lits_map_Lit s : lits (map Lit s) = s.
Proof. induction s as [|c s IH]; [reflexivity|]. cbn. f_equal. exact IH. Qed.

Lemma to_plain_lits v : all_lit (items v) = true -> to_plain true v = lits (items v).
Proof.
  induction v as [|p v IH]; intros H; [reflexivity|].
  rewrite items_cons, all_lit_app in H. apply andb_true_iff in H. destruct H as [Hp Hv].
  rewrite to_plain_cons, items_cons, lits_app, IH by exact Hv.
  destruct p; try discriminate. cbn [part_plain part_items]. rewrite lits_map_Lit. reflexivity.
Qed.

Lemma sextet_plain g : plain_char (sextet g) = true.
Proof. exact (sextet_table plain_char g eq_refl). Qed.
Lemma sextets_plain gs : forallb plain_char (map sextet gs) = true.
Proof. induction gs as [|g gs IH]; [reflexivity|]. cbn [map forallb]. rewrite sextet_plain, IH. reflexivity. Qed.
Lemma full6_plain l : forallb plain_char (full6 l) = true.
Proof. apply sextets_plain. Qed.
Lemma rfc4648_plain b : forallb plain_char (rfc4648 b) = true.
Proof.
  unfold rfc4648, enc6. rewrite forallb_app, sextets_plain.
  induction (Nat.modulo _ _) as [|n IH]; [reflexivity | exact IH].
Qed.

Lemma items_parse_plain t : forallb plain_char t = true -> items (parse true t) = map Lit t.
Proof. intros H. rewrite parse_items. apply iparse_plain, H. Qed.

Lemma py_encode_some enc s b : py_encode enc s = Some b -> b = enc s /\ forallb scalar s = true.
Proof. unfold py_encode. destruct (forallb scalar s); intros H; inversion H. split; reflexivity. Qed.

Lemma bytes_of_lits v b : all_lit (items v) = true -> bytes_of v = Some b ->
  b = utf8 (lits (items v)) /\ forallb scalar (lits (items v)) = true.
Proof. intros H. unfold bytes_of. rewrite to_plain_lits by exact H. apply py_encode_some. Qed.

(* the second premise has the shape of mod_str MBase64 v and of mod_str MBase64Offset v, with g what each makes of
   the octets *)
Lemma payload_bytes {A} v (g : list N -> A) x : contains_placeholder v = false ->
  (if contains_special v then SigmaErr E_Value
   else match bytes_of v with None => SigmaErr E_Value | Some b => Ok (g b) end) = Ok x ->
  all_lit (items v) = true /\ bytes_ok (utf8 (lits (items v))) = true /\ x = g (utf8 (lits (items v))).
Proof.
  intros Hp H. destruct (contains_special v) eqn:Hs; [discriminate|].
  destruct (bytes_of v) as [b|] eqn:Hb; [injection H as <- | discriminate].
  assert (L : all_lit (items v) = true) by (rewrite all_lit_items, Hs, Hp; reflexivity).
  destruct (bytes_of_lits v b L Hb) as [-> Hsc]. split; [exact L|]. split; [apply utf8_ok, Hsc | reflexivity].
Qed.

Theorem base64_value v x : contains_placeholder v = false -> mod_str MBase64 v = Ok x ->
  exists w, x = VStr w /\ all_lit (items v) = true
            /\ items w = map Lit (rfc4648 (utf8 (lits (items v)))).
Proof.
  intros Hp H. destruct (payload_bytes v _ x Hp H) as (L & Hok & ->).
  eexists. split; [reflexivity|]. split; [exact L|].
  rewrite b64_rfc4648 by exact Hok. apply items_parse_plain, rfc4648_plain.
Qed.

Theorem base64_reject m v e : m = MBase64 \/ m = MBase64Offset -> mod_str m v = SigmaErr e ->
  contains_special v = true \/ forallb scalar (to_plain true v) = false.
Proof.
  intros [-> | ->] H; unfold mod_str, bytes_of, py_encode in H;
    (destruct (contains_special v); [left; reflexivity | right]);
    destruct (forallb scalar (to_plain true v)); [discriminate | reflexivity | discriminate | reflexivity].
Qed.

Theorem base64offset_value v x : contains_placeholder v = false -> mod_str MBase64Offset v = Ok x ->
  exists w0 w1 w2, x = VExp [VStr w0; VStr w1; VStr w2] /\ all_lit (items v) = true
    /\ bytes_ok (utf8 (lits (items v))) = true
    /\ items w0 = map Lit (variant 0 (utf8 (lits (items v))))
    /\ items w1 = map Lit (variant 1 (utf8 (lits (items v))))
    /\ items w2 = map Lit (variant 2 (utf8 (lits (items v)))).
Proof.
  intros Hp H. destruct (payload_bytes v _ x Hp H) as (L & Hok & ->).
  do 3 eexists. split; [reflexivity|]. split; [exact L|]. split; [exact Hok|].
  repeat split; apply items_parse_plain; rewrite variant_payload_text by (exact Hok || (clear; lia));
    apply full6_plain.
Qed.

(* Model.Enc writes the sequential map as a local fix, so it is not convertible with `traverse` on a variable list *)
Lemma omap_traverse {A B} (f : A -> outcome B) l : omap f l = traverse f l.
Proof. induction l as [|y r IH]; [reflexivity|]. cbn [traverse]. rewrite <- IH. reflexivity. Qed.

Definition recode_part (enc : str -> list N) (p : part) : outcome part :=
  match p with
  | PStr s => match py_encode enc s with
              | None => SigmaErr E_Value
              | Some bs => match utf8_dec bs with None => SigmaErr E_Value | Some s' => Ok (PStr s') end
              end
  | _ => Ok p
  end.

Lemma recode_traverse enc v : recode enc v = traverse (recode_part enc) v.
Proof.
  induction v as [|p v IH]; [reflexivity|]. cbn [traverse]. rewrite <- IH.
  destruct p; try reflexivity. cbn [recode recode_part].
  destruct (py_encode enc s) as [bs|]; [|reflexivity]. destruct (utf8_dec bs); reflexivity.
Qed.

Definition is_str (p : part) : bool := match p with PStr _ => true | _ => false end.

Lemma recode_ind enc (P : sstring -> sstring -> Prop) :
  P [] [] ->
  (forall s s' v w, forallb scalar s = true -> utf8 s' = enc s -> forallb scalar s' = true ->
                    P v w -> P (PStr s :: v) (PStr s' :: w)) ->
  (forall p v w, is_str p = false -> P v w -> P (p :: v) (p :: w)) ->
  forall v w, recode enc v = Ok w -> P v w.
Proof.
  intros P0 Ps Pw v w H. rewrite recode_traverse in H.
  apply (traverse_rel _ (fun p q => recode_part enc p = Ok q)) in H; [|auto].
  induction H as [|p p' v w Hp _ IH]; [exact P0|].
  destruct p as [s| | |n]; try (inversion Hp; apply Pw; [reflexivity | exact IH]).
  cbn [recode_part] in Hp. destruct (py_encode enc s) as [bs|] eqn:E1; [|discriminate].
  destruct (utf8_dec bs) as [s'|] eqn:E2; inversion Hp.
  apply py_encode_some in E1. destruct E1 as [-> Hs]. apply utf8_dec_sound in E2. destruct E2 as [U S].
  apply Ps; assumption.
Qed.

(* The lemmas on the loop are stated for recode (flat_map f): the modifiers call recode utf16le and recode utf16be,
   and utf16le, utf16be are flat_map utf16le_char, flat_map utf16be_char by definition. *)
Theorem recode_stream (f : char -> list N) v w :
  recode (flat_map f) v = Ok w -> vstream w = stream f (items v).
Proof.
  revert v w. apply recode_ind; [reflexivity| |]; intros; rewrite vstream_cons, items_cons, stream_app; f_equal; trivial.
  - cbn [part_items]. rewrite !stream_lits. f_equal. assumption.
  - destruct p; [discriminate|reflexivity..].
Qed.

Lemma recode_scalar enc v w : recode enc v = Ok w ->
  forallb scalar (lits (items v)) = true /\ forallb scalar (lits (items w)) = true.
Proof.
  revert v w. apply recode_ind.
  - split; reflexivity.
  - intros s s' v w Hs _ Hs' [A B]. rewrite !items_cons, !lits_app, !forallb_app. cbn [part_items].
    rewrite !lits_map_Lit. split; apply andb_true_iff; split; assumption.
  - intros p v w Hp IH. rewrite !items_cons, !lits_app, !forallb_app. destruct p; [discriminate | exact IH..].
Qed.

Theorem recode_reject (f : char -> list N) v e : recode (flat_map f) v = SigmaErr e ->
  exists s, In (PStr s) v /\
    (forallb scalar s = false \/ forall s', forallb scalar s' = true -> utf8 s' <> flat_map f s).
Proof.
  intros H. rewrite recode_traverse in H. apply traverse_err in H. destruct H as (p & Hin & H).
  destruct p as [s| | |n]; try discriminate. exists s. split; [exact Hin|].
  cbn [recode_part] in H. unfold py_encode in H.
  destruct (forallb scalar s); [right | left; reflexivity].
  destruct (utf8_dec (flat_map f s)) eqn:E; [discriminate | apply utf8_dec_none, E].
Qed.

Lemma recode_safe enc v : safe (recode enc v).
Proof.
  rewrite recode_traverse. apply traverse_safe. intros p _. destruct p; try exact I.
  cbn [recode_part]. destruct (py_encode enc s) as [bs|]; [|exact I]. destruct (utf8_dec bs); exact I.
Qed.

Theorem wide_bytes v x : mod_str MWide v = Ok x ->
  exists w, x = VStr w /\ vstream w = stream utf16le_char (items v).
Proof. intros (r & E & [= <-])%obind_ok. exists r. split; [reflexivity | apply recode_stream, E]. Qed.
Theorem utf16be_bytes v x : mod_str MUtf16be v = Ok x ->
  exists w, x = VStr w /\ vstream w = stream utf16be_char (items v).
Proof. intros (r & E & [= <-])%obind_ok. exists r. split; [reflexivity | apply recode_stream, E]. Qed.
(* utf16: the little-endian content is right, but it is preceded by EF BB BF, not by FF FE *)
Theorem utf16_bytes_partial v x : mod_str MUtf16 v = Ok x ->
  exists w, x = VStr w /\ vstream w = map SB [239; 187; 191] ++ stream utf16le_char (items v).
Proof.
  intros (r & E & [= <-])%obind_ok. eexists. split; [reflexivity|].
  rewrite vstream_cons. f_equal. apply recode_stream, E.
Qed.
Theorem utf16_never_bom v w : mod_str MUtf16 v = Ok (VStr w) ->
  vstream w <> map SB bom_le ++ stream utf16le_char (items v).
Proof.
  intros H. destruct (utf16_bytes_partial v _ H) as [w' [E S]]. inversion E; subst w'.
  rewrite S. discriminate.
Qed.
Theorem utf16_bom_refuted : exists v w, mod_str MUtf16 v = Ok (VStr w) /\
  vstream w <> map SB bom_le ++ stream utf16le_char (items v).
Proof.
  exists [PStr [97]], [PStr [65279]; PStr [97; 0]].
  assert (H : mod_str MUtf16 [PStr [97]] = Ok (VStr [PStr [65279]; PStr [97; 0]])) by (vm_compute; reflexivity).
  split; [exact H | exact (utf16_never_bom _ _ H)].
Qed.

(* what a following base64 or base64offset sees of the recoded value *)
Lemma recode_lits (f : char -> list N) v w : recode (flat_map f) v = Ok w ->
  all_lit (items w) = all_lit (items v) /\ utf8 (lits (items w)) = flat_map f (lits (items v)).
Proof.
  revert v w. apply recode_ind; [split; reflexivity| |].
  - intros s s' v w _ U _ [A B]. rewrite !items_cons, !all_lit_app, !lits_app, utf8_app, flat_map_app, A, B.
    cbn [part_items]. rewrite !all_lit_map_Lit, !lits_map_Lit, U. split; reflexivity.
  - intros p v w Hp [A B]. rewrite !items_cons, !all_lit_app, !lits_app, utf8_app, flat_map_app, A, B.
    destruct p; [discriminate | split; reflexivity..].
Qed.

Lemma recode_bytes (f : char -> list N) v w :
  recode (flat_map f) v = Ok w -> all_lit (items v) = true ->
  all_lit (items w) = true /\ bytes_of w = Some (flat_map f (lits (items v))).
Proof.
  intros H A. destruct (recode_lits f v w H) as [Aw B]. rewrite A in Aw. split; [exact Aw|].
  unfold bytes_of, py_encode. rewrite to_plain_lits by exact Aw.
  rewrite (proj2 (recode_scalar _ _ _ H)), B. reflexivity.
Qed.

Lemma recode_placeholder enc v w : recode enc v = Ok w -> contains_placeholder w = contains_placeholder v.
Proof.
  revert v w. apply recode_ind; [reflexivity| |]; intros; unfold contains_placeholder; cbn [existsb]; f_equal; assumption.
Qed.
