(* C11 - postprocessing over the copied condition model: on a spelled condition whose names are defined and
   whose selectors select something, the postprocessed condition tree has the meaning of the expression.
   Proofs/CondP.v read along Proofs/FModelP.v. *)
From Coq Require Import NArith List.
From PS Require Import Base.Chars Base.Outcome Model.FCondParse Model.FCond Spec.FCondGrammar.
From PS Require Proofs.CondP Proofs.FModelP.
Import ListNotations.
Open Scope N_scope.

Theorem meaning e s dets :
  wf_expr e = true -> Spells s e -> defined dets e = true -> inhabited dets e = true ->
  exists t c, parse s = Ok t /\ post dets t = Ok (Some c) /\
              forall asg, ceval asg c = Some (sem dets asg e).
Proof.
  rewrite <- FModelP.wf_expr_copy, <- FModelP.defined_copy, <- FModelP.inhabited_copy.
  intros Hw HS Hd Hi.
  destruct (CondP.meaning _ s dets Hw (FModelP.Spells_copy _ _ HS) Hd Hi) as (t & c & Ht & Hc & Hev).
  exists (FModelP.of_ptree t), (FModelP.of_ctree c).
  rewrite FModelP.parse_copy, Ht, FModelP.post_copy, Hc. split; [reflexivity|]. split; [reflexivity|].
  intros asg. rewrite FModelP.ceval_copy, Hev, FModelP.sem_copy. reflexivity.
Qed.

Theorem undefined_reported e s dets :
  wf_expr e = true -> Spells s e -> defined dets e = false ->
  exists t, parse s = Ok t /\ post dets t = SigmaErr E_Condition.
Proof.
  rewrite <- FModelP.wf_expr_copy, <- FModelP.defined_copy. intros Hw HS Hd.
  destruct (CondP.undefined_reported _ s dets Hw (FModelP.Spells_copy _ _ HS) Hd) as (t & Ht & Hp).
  exists (FModelP.of_ptree t). rewrite FModelP.parse_copy, Ht, FModelP.post_copy, Hp. split; reflexivity.
Qed.

(* From here on as in Proofs/CondP.v, over the copy's tokens: FModelP.Lay_copy takes a layout of the copy to one of
   the original only, so render_lay and the witness are not read along the translation. *)
Fixpoint render (ts : list tok) : str :=
  match ts with
  | [] => []
  | TW w :: r => c_space :: w ++ render r
  | TL :: r => c_lpar :: render r
  | TR :: r => c_rpar :: render r
  end.

Definition word_tok (t : tok) : Prop := match t with TW w => word w | _ => True end.

Lemma render_lay ts : Forall word_tok ts -> forall b, Lay b ts (render ts).
Proof.
  induction 1 as [|t ts Ht _ IH]; intros b.
  - apply (lay_nil b []). reflexivity.
  - destruct t as [w| |]; simpl.
    + apply (lay_word b [c_space] w ts (render ts)); auto; [reflexivity | discriminate].
    + apply (lay_lpar b [] ts (render ts)); [reflexivity | apply IH].
    + apply (lay_rpar b [] ts (render ts)); [reflexivity | apply IH].
Qed.

Definition wit_dets : list str := [[97]; [98]].
Definition wit_e : expr := EAnd (EId [97]) (ESel Q1 [120; 42]).
Definition wit_ts : list tok := [TW [97]; TW w_and; TW w_1; TW w_of; TW [120; 42]].
Definition wit_s : str := render wit_ts.          (* " a and 1 of x*" *)

Lemma wit_spells : Spells wit_s wit_e.
Proof.
  exists wit_ts. split.
  - apply render_lay. repeat constructor; try discriminate.
  - apply (sp_up 2). apply (sp_and [TW [97]] [TW w_1; TW w_of; TW [120; 42]] (EId [97]) (ESel Q1 [120; 42])).
    + apply (sp_up 1), (sp_up 0), sp_id.
    + apply (sp_up 0). exact (sp_sel Q1 [120; 42]).
Qed.

Theorem empty_selector_refuted :
  exists dets e s, wf_expr e = true /\ Spells s e /\ defined dets e = true /\
    forall c, run_post dets s = Ok c -> exists asg, ceval_top asg c <> Some (sem dets asg e).
Proof.
  exists wit_dets, wit_e, wit_s. split; [reflexivity|]. split; [exact wit_spells|]. split; [reflexivity|].
  intros c H. vm_compute in H. inversion H; subst. exists (fun _ => true). vm_compute. discriminate.
Qed.
