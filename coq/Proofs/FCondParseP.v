(* C11 - the condition parser of the copied model: the lexer skips blanks, the fuel of the entry point
   suffices, the PEG is complete for the stratified grammar.  Proofs/CondParseP.v read along
   Proofs/FModelP.v; the notions in which completeness is stated (folde, PE, LOOP, stops, Operand, OpSeq) are
   those of CondParseP over the copy's tokens and correspond to them one by one.  parse_complete does not go
   through main: it is CondParseP.parse_complete read along parse_copy. *)
From Coq Require Import List.
From PS Require Import Base.Chars Base.Outcome Model.FCondParse Spec.FCondGrammar.
From PS Require Model.CondParse Proofs.CondParseP Proofs.FModelP.
Import ListNotations.
Open Scope N_scope.

Lemma blank_not_word c : is_blank c = true -> is_wordc c = false.
Proof. exact (CondParseP.blank_not_word c). Qed.

Lemma lex_blanks0 ws : forallb is_blank ws = true -> forall s, lex (ws ++ s) [] = lex s [].
Proof. intros H s. rewrite !FModelP.lex_copy, (CondParseP.lex_blanks0 ws H). reflexivity. Qed.

Section Fold.
  Context {A : Type}.
  Variable a_id : str -> A.
  Variable a_sel : quant -> str -> A.
  Variable a_not : A -> A.
  Variable e_bin : bop -> A -> A -> A.

  Fixpoint folde (e : expr) : A :=
    match e with
    | EId n => a_id n
    | ESel q p => a_sel q p
    | ENot a => a_not (folde a)
    | EAnd a b => e_bin BAnd (folde a) (folde b)
    | EOr a b => e_bin BOr (folde a) (folde b)
    end.

  Lemma folde_copy e :
    CondParseP.folde a_id (fun q => a_sel (FModelP.of_quant q)) a_not (fun o => e_bin (FModelP.of_bop o))
      (FModelP.to_expr e) = folde e.
  Proof.
    induction e; cbn [FModelP.to_expr FModelP.of_bop CondParseP.folde folde]; rewrite ?FModelP.of_to_quant; congruence.
  Qed.
End Fold.

Section Complete.
  Context {A : Type}.
  Variable vid : str -> A.
  Variable vsel : quant -> str -> A.
  Variable negb : A -> A.
  Variable b_bin : bop -> list A -> A.
  Variable e_bin : bop -> A -> A -> A.
  Hypothesis law1 : forall o x, b_bin o [x] = x.
  Hypothesis law2 : forall o l v, l <> [] -> b_bin o (l ++ [v]) = e_bin o (b_bin o l) v.
  Notation peb := (pe vid vsel negb b_bin).
  Notation loopb := (loop vid vsel negb b_bin).
  Notation sm := (folde vid vsel negb e_bin).
  (* the same algebra over the quantifiers and operators of the original, and the original's notions in it *)
  Notation of_toks := (map FModelP.of_tok).
  Notation vsel' := (fun q => vsel (FModelP.of_quant q)).
  Notation b_bin' := (fun o => b_bin (FModelP.of_bop o)).
  Notation e_bin' := (fun o => e_bin (FModelP.of_bop o)).

  Definition PE (i : nat) (ts : list tok) (v : A) (r : list tok) : Prop :=
    exists f, peb f i ts = Done (v, r).
  Definition LOOP (o : bop) (k : nat) (acc : list A) (r : list tok) (v : A) (r' : list tok) : Prop :=
    exists f, loopb f o k acc r = Done (v, r').

  Lemma PE_copy i ts v r : PE i (of_toks ts) v (of_toks r) <-> CondParseP.PE vid vsel' negb b_bin' i ts v r.
  Proof.
    split; intros [f H]; exists f;
      [rewrite (proj1 (FModelP.pe_copy _ _ _ _ _)) in H | rewrite (proj1 (FModelP.pe_copy _ _ _ _ _))];
      apply FModelP.of_pres_Done, H.
  Qed.

  Lemma LOOP_copy o k acc r v r' :
    LOOP (FModelP.of_bop o) k acc (of_toks r) v (of_toks r') <-> CondParseP.LOOP vid vsel' negb b_bin' o k acc r v r'.
  Proof.
    split; intros [f H]; exists f;
      [rewrite (proj2 (FModelP.pe_copy _ _ _ _ _)) in H | rewrite (proj2 (FModelP.pe_copy _ _ _ _ _))];
      apply FModelP.of_pres_Done, H.
  Qed.

  Definition stops (i : nat) (rest : list tok) : Prop :=
    match rest with
    | [] => True
    | TR :: _ => True
    | TW w :: _ => (w = w_and /\ (i < 2)%nat) \/ (w = w_or /\ (i < 3)%nat)
    | TL :: _ => False
    end.

  Lemma stops_copy i rest : stops i (of_toks rest) = CondParseP.stops i rest.
  Proof. destruct rest as [|[w| |] r]; reflexivity. Qed.

  Definition lvl_ok (o : bop) (k : nat) : Prop := (o = BAnd /\ k = 1%nat) \/ (o = BOr /\ k = 2%nat).

  Lemma lvl_ok_copy o k : lvl_ok (FModelP.of_bop o) k -> CondParseP.lvl_ok o k.
  Proof. destruct o; intros [[E ->]|[E ->]]; try discriminate E; [left | right]; auto. Qed.

  Definition Operand (k : nat) (ts : list tok) (v : A) : Prop :=
    forall rest, stops k rest -> PE k (ts ++ rest) v rest.

  Lemma Operand_copy k ts v : Operand k (of_toks ts) v <-> CondParseP.Operand vid vsel' negb b_bin' k ts v.
  Proof.
    split; intros H rest Hs.
    - apply PE_copy. rewrite map_app. apply H. rewrite stops_copy. exact Hs.
    - rewrite <- (FModelP.of_to_toks rest) in Hs |- *. rewrite stops_copy in Hs.
      rewrite <- map_app. apply PE_copy, H, Hs.
  Qed.

  Inductive OpSeq (o : bop) (k : nat) : list tok -> list A -> Prop :=
  | os1 ts v : Operand k ts v -> OpSeq o k ts [v]
  | osS ts v ts' l : Operand k ts v -> OpSeq o k ts' l ->
      OpSeq o k (ts ++ TW (opw o) :: ts') (v :: l).

  Lemma OpSeq_of o k ts l :
    CondParseP.OpSeq vid vsel' negb b_bin' o k ts l -> OpSeq (FModelP.of_bop o) k (of_toks ts) l.
  Proof.
    induction 1 as [ts v H | ts v ts' l H _ IH].
    - apply os1, Operand_copy, H.
    - rewrite map_app. cbn [map FModelP.of_tok]. rewrite <- FModelP.opw_copy.
      apply osS; [apply Operand_copy, H | exact IH].
  Qed.

  Lemma OpSeq_to o k ts l :
    OpSeq (FModelP.of_bop o) k ts l -> CondParseP.OpSeq vid vsel' negb b_bin' o k (map FModelP.to_tok ts) l.
  Proof.
    induction 1 as [ts v H | ts v ts' l H _ IH].
    - apply CondParseP.os1, Operand_copy. rewrite FModelP.of_to_toks. exact H.
    - rewrite map_app. cbn [map FModelP.to_tok]. rewrite FModelP.opw_copy.
      apply CondParseP.osS; [apply Operand_copy; rewrite FModelP.of_to_toks; exact H | exact IH].
  Qed.

  Lemma OpSeq_loop o k ts l : OpSeq o k ts l -> lvl_ok o k ->
    forall acc rest, stops (S k) rest ->
    LOOP o k acc (TW (opw o) :: ts ++ rest) (fin b_bin o (rev acc ++ l)) rest.
  Proof.
    rewrite <- (FModelP.of_to_bop o).
    intros H Hl acc rest Hs. rewrite <- (FModelP.of_to_toks rest) in Hs |- *. rewrite stops_copy in Hs.
    rewrite <- (FModelP.of_to_toks ts), <- map_app, FModelP.opw_copy, FModelP.fin_copy.
    apply (LOOP_copy _ k acc (CondParse.TW _ :: _)).
    apply CondParseP.OpSeq_loop; [apply OpSeq_to, H | apply lvl_ok_copy, Hl | exact Hs].
  Qed.

  Lemma main i ts e : SpellsT i ts e -> wf_expr e = true ->
    (forall j rest, (i <= j <= 3)%nat -> stops j rest -> PE j (ts ++ rest) (sm e) rest) /\
    (i = 2%nat -> exists l, OpSeq BAnd 1 ts l /\ b_bin BAnd l = sm e) /\
    (i = 3%nat -> exists l, OpSeq BOr 2 ts l /\ b_bin BOr l = sm e).
  Proof.
    intros H Hw. apply FModelP.SpellsT_copy in H. rewrite <- FModelP.wf_expr_copy in Hw.
    destruct (CondParseP.main vid vsel' negb b_bin' e_bin' (fun o => law1 _) (fun o => law2 _) _ _ _ H Hw)
      as (P & SA & SO).
    rewrite folde_copy in P, SA, SO. rewrite <- (FModelP.of_to_toks ts). split; [|split].
    - intros j rest Hj Hs. rewrite <- (FModelP.of_to_toks rest) in Hs |- *. rewrite stops_copy in Hs.
      rewrite <- map_app. apply PE_copy, P; assumption.
    - intros E. destruct (SA E) as (l & Hl & El). exists l. split; [exact (OpSeq_of _ _ _ _ Hl) | exact El].
    - intros E. destruct (SO E) as (l & Hl & El). exists l. split; [exact (OpSeq_of _ _ _ _ Hl) | exact El].
  Qed.
End Complete.

Theorem parse_complete e s : wf_expr e = true -> Spells s e ->
  exists t, parse s = Ok t /\ forall vid vsel, denv vid vsel t = semv vid vsel e.
Proof.
  rewrite <- FModelP.wf_expr_copy. intros Hw HS.
  destruct (CondParseP.parse_complete _ s Hw (FModelP.Spells_copy _ _ HS)) as (t & Ht & Hd).
  exists (FModelP.of_ptree t). rewrite FModelP.parse_copy, Ht. split; [reflexivity|].
  intros vid vsel. rewrite FModelP.denv_copy, Hd. apply FModelP.semv_copy.
  intros q p. rewrite FModelP.of_to_quant. reflexivity.
Qed.

Theorem parse_never_out_of_fuel s : parse s <> Crash E_Fuel.
Proof.
  rewrite FModelP.parse_copy. pose proof (CondParseP.parse_safe s) as S.
  destruct (CondParse.parse s); [discriminate | discriminate | destruct S].
Qed.
