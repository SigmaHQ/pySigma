(* C11 - the matcher of the copied condition model decides the declarative glob relation: Proofs/GlobP.v read
   along Proofs/FModelP.v. *)
From Coq Require Import List.
From PS Require Import Model.FCondParse Model.FCond Spec.FGlob Spec.FCondGrammar.
From PS Require Proofs.GlobP Proofs.FModelP.
Import ListNotations.
Open Scope N_scope.

Theorem globb_Glob p n : globb p n = true <-> Glob p n.
Proof. rewrite FModelP.Glob_copy. apply GlobP.globb_Glob. Qed.

Lemma rmatch_compile p n : rmatch (compile p) n = globb p n.
Proof. rewrite FModelP.rmatch_copy, FModelP.compile_copy. apply GlobP.rmatch_compile. Qed.

Theorem rmatch_Glob p n : rmatch (compile p) n = true <-> Glob p n.
Proof. rewrite rmatch_compile. apply globb_Glob. Qed.

Theorem resolve_sel_names dets p : resolve dets p = sel_names dets p.
Proof. rewrite FModelP.resolve_copy. apply GlobP.resolve_sel_names. Qed.

Theorem selected_spec p n :
  selected p n = true <->
  (p = w_them \/ Glob p n) /\ (us p = true \/ us n = false).
Proof. rewrite FModelP.Glob_copy. apply GlobP.selected_spec. Qed.

Theorem sel_names_spec dets p n :
  In n (sel_names dets p) <-> In n dets /\ (p = w_them \/ Glob p n) /\ (us p = true \/ us n = false).
Proof. rewrite FModelP.Glob_copy. apply GlobP.sel_names_spec. Qed.

Theorem selector_spec dets p :
  resolve dets p = filter (selected p) dets /\
  forall n, In n (resolve dets p) <->
            In n dets /\ (p = w_them \/ Glob p n) /\ (us p = true \/ us n = false).
Proof.
  rewrite FModelP.resolve_copy. setoid_rewrite FModelP.Glob_copy. apply GlobP.selector_spec.
Qed.
