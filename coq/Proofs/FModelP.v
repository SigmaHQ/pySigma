(* C11 - the copy of the condition model (Model/FCondParse.v, Model/FCond.v, Spec/FGlob.v, Spec/FCondGrammar.v)
   is the condition model of C02 under other names.  What is defined over characters and strings alone is the
   same term in both.  Each inductive type gets a translation (to_: copy to original, of_: original to copy),
   each function the equation that moves the translation through it, each inductive relation an implication or
   equivalence; the lemmas of the copy are then those of Proofs/GlobP.v, CondParseP.v and CondP.v read along it. *)
From Coq Require Import NArith List Bool.
From PS Require Import Base.Chars Base.Outcome Model.CondParse Model.Cond Spec.Glob Spec.CondGrammar
                       Proofs.GlobP Proofs.CondParseP.
From PS Require Model.FCondParse Model.FCond Spec.FGlob Spec.FCondGrammar.
Import ListNotations.
Open Scope N_scope.

Lemma Glob_copy p n : FGlob.Glob p n <-> Glob p n.
Proof. split; induction 1; constructor; assumption. Qed.

Definition to_ritem (x : FCond.ritem) : ritem :=
  match x with FCond.RLit c => RLit c | FCond.RDotStar => RDotStar end.

Lemma compile_copy p : map to_ritem (FCond.compile p) = compile p.
Proof.
  unfold FCond.compile, compile. rewrite map_map. apply map_ext. intros c. destruct (c =? c_star); reflexivity.
Qed.

Lemma rmatch_copy r n : FCond.rmatch r n = rmatch (map to_ritem r) n.
Proof.
  revert n. induction r as [|[c|] r IH]; intros n; simpl.
  - reflexivity.
  - destruct n; [reflexivity|]. rewrite IH. reflexivity.
  - apply star_any_ext, IH.
Qed.

Lemma sel_regex_copy p : map to_ritem (FCond.sel_regex p) = sel_regex p.
Proof.
  unfold FCond.sel_regex, sel_regex. change FCondParse.w_them with w_them.
  destruct (str_eqb p w_them); [reflexivity | apply compile_copy].
Qed.

Lemma resolve_copy dets p : FCond.resolve dets p = resolve dets p.
Proof.
  unfold FCond.resolve, resolve. apply filter_ext. intros n. rewrite rmatch_copy, sel_regex_copy. reflexivity.
Qed.

Definition to_tok (t : FCondParse.tok) : tok :=
  match t with FCondParse.TW w => TW w | FCondParse.TL => TL | FCondParse.TR => TR end.
Definition of_tok (t : tok) : FCondParse.tok :=
  match t with TW w => FCondParse.TW w | TL => FCondParse.TL | TR => FCondParse.TR end.
Definition to_quant (q : FCondParse.quant) : quant :=
  match q with FCondParse.Q1 => Q1 | FCondParse.QAny => QAny | FCondParse.QAll => QAll end.
Definition of_quant (q : quant) : FCondParse.quant :=
  match q with Q1 => FCondParse.Q1 | QAny => FCondParse.QAny | QAll => FCondParse.QAll end.
Definition of_bop (o : bop) : FCondParse.bop :=
  match o with BAnd => FCondParse.BAnd | BOr => FCondParse.BOr end.
Definition to_bop (o : FCondParse.bop) : bop :=
  match o with FCondParse.BAnd => BAnd | FCondParse.BOr => BOr end.
Definition of_pres {X Y} (g : X -> Y) (x : pres X) : FCondParse.pres Y :=
  match x with Done v => FCondParse.Done (g v) | Fail => FCondParse.Fail | OutOfFuel => FCondParse.OutOfFuel end.
Definition of_rest {A} (x : A * list tok) : A * list FCondParse.tok := (fst x, map of_tok (snd x)).

Lemma of_to_quant q : of_quant (to_quant q) = q.
Proof. destruct q; reflexivity. Qed.

Lemma of_to_bop o : of_bop (to_bop o) = o.
Proof. destruct o; reflexivity. Qed.

Lemma of_to_toks ts : map of_tok (map to_tok ts) = ts.
Proof. induction ts as [|[w| |] ts IH]; simpl; congruence. Qed.

Lemma to_of_toks ts : map to_tok (map of_tok ts) = ts.
Proof. induction ts as [|[w| |] ts IH]; simpl; congruence. Qed.

Lemma of_pres_Done {A} (x : pres (A * list tok)) v r :
  of_pres of_rest x = FCondParse.Done (v, map of_tok r) <-> x = Done (v, r).
Proof.
  split; [|intros ->; reflexivity]. destruct x as [[v' r']| |]; try discriminate.
  intros [= -> E]. rewrite <- (to_of_toks r'), E, to_of_toks. reflexivity.
Qed.

(* the words and character tests of the copy are those of the original *)
Ltac same_words :=
  change FCondParse.w_not with w_not; change FCondParse.w_of with w_of; change FCondParse.w_1 with w_1;
  change FCondParse.w_any with w_any; change FCondParse.w_all with w_all; change FCondParse.is_pat with is_pat;
  change FCondParse.is_patc with is_patc; change FCondParse.is_ident with is_ident;
  change FCondParse.is_wordc with is_wordc; change FCondParse.is_blank with is_blank.

Lemma quant_of_copy w : FCondParse.quant_of w = option_map of_quant (quant_of w).
Proof.
  unfold FCondParse.quant_of, quant_of. same_words.
  destruct (str_eqb w w_1); [reflexivity|]. destruct (str_eqb w w_any); [reflexivity|].
  destruct (str_eqb w w_all); reflexivity.
Qed.

Lemma opw_copy o : FCondParse.opw (of_bop o) = opw o.
Proof. destruct o; reflexivity. Qed.

Lemma lvl_op_copy k : FCondParse.lvl_op k = of_bop (lvl_op k).
Proof. destruct k as [|[|k]]; reflexivity. Qed.

Lemma flush_copy cur ts : FCondParse.flush cur (map of_tok ts) = map of_tok (flush cur ts).
Proof. destruct cur; reflexivity. Qed.

Lemma lex_copy s : forall cur, FCondParse.lex s cur = omap (map of_tok) (lex s cur).
Proof.
  induction s as [|c s IH]; intros cur; cbn [FCondParse.lex lex].
  - cbn [omap]. f_equal. apply (flush_copy cur []).
  - same_words. destruct (is_wordc c); [apply IH|].
    destruct (is_blank c); [|destruct (c =? c_lpar); [|destruct (c =? c_rpar); [|reflexivity]]];
      rewrite IH; destruct (lex s []) as [ts| |]; try reflexivity; cbn [omap FCondParse.omap]; f_equal.
    + apply flush_copy.
    + apply (flush_copy cur (TL :: ts)).
    + apply (flush_copy cur (TR :: ts)).
Qed.

(* an algebra over the copy's quantifiers and operators is one over the original's: the two parsers run alike *)
Section ParserCopy.
  Context {A : Type}.
  Variable vid : str -> A.
  Variable vsel : FCondParse.quant -> str -> A.
  Variable vnot : A -> A.
  Variable vbin : FCondParse.bop -> list A -> A.
  Notation vsel' := (fun q => vsel (of_quant q)).
  Notation vbin' := (fun o => vbin (of_bop o)).
  Notation pef := (FCondParse.pe vid vsel vnot vbin).
  Notation loopf := (FCondParse.loop vid vsel vnot vbin).
  Notation pe' := (pe vid vsel' vnot vbin').
  Notation loop' := (loop vid vsel' vnot vbin').

  Lemma sel_copy ts : FCondParse.sel vsel (map of_tok ts) = option_map of_rest (sel vsel' ts).
  Proof.
    unfold FCondParse.sel, sel. destruct ts as [|[q| |] [|[o| |] r0]]; try reflexivity.
    cbn [map of_tok]. rewrite quant_of_copy. destruct (quant_of q); [|reflexivity]. same_words. cbn [option_map].
    destruct (str_eqb o w_of).
    - destruct r0 as [|[p| |] r']; try reflexivity. cbn [map of_tok]. destruct (is_pat p); reflexivity.
    - destruct o as [|c1 [|c2 [|c3 p']]]; try reflexivity.
      destruct ((c1 =? 111) && (c2 =? 102) && (c3 =? c_star) && forallb is_patc p'); reflexivity.
  Qed.

  Lemma fin_copy o l : FCondParse.fin vbin (of_bop o) l = fin vbin' o l.
  Proof. destruct l as [|x [|y l]]; reflexivity. Qed.

  Lemma pe_copy : forall f,
    (forall i ts, pef f i (map of_tok ts) = of_pres of_rest (pe' f i ts)) /\
    (forall o k acc r, loopf f (of_bop o) k acc (map of_tok r) = of_pres of_rest (loop' f o k acc r)).
  Proof.
    induction f as [|f [IHp IHl]]; split; intros; try reflexivity.
    - rewrite pe_S. cbn [FCondParse.pe]. same_words. destruct i as [|[|k]].
      + rewrite sel_copy. destruct (sel vsel' ts) as [[v r]|]; [reflexivity|]. cbn [option_map].
        destruct ts as [|[w| |] r]; try reflexivity; cbn [map of_tok].
        * destruct (is_ident w); reflexivity.
        * rewrite IHp. destruct (pe' f 3 r) as [[v [|[w| |] r']]| |]; reflexivity.
      + destruct ts as [|[w| |] r]; try apply IHp. cbn [map of_tok].
        destruct (str_eqb w w_not); [|apply (IHp 0%nat (TW w :: r))].
        rewrite IHp. destruct (pe' f 1 r) as [[v r']| |]; try reflexivity. apply (IHp 0%nat (TW w :: r)).
      + rewrite IHp. destruct (pe' f (S k) ts) as [[v r]| |]; try reflexivity.
        cbn [of_pres of_rest fst snd]. rewrite lvl_op_copy. apply IHl.
    - rewrite loop_S. cbn [FCondParse.loop]. rewrite fin_copy.
      destruct r as [|[w| |] r']; try reflexivity. cbn [map of_tok]. rewrite opw_copy.
      destruct (str_eqb w (opw o)); [|reflexivity].
      rewrite IHp. destruct (pe' f k r') as [[v' r'']| |]; try reflexivity. apply IHl.
  Qed.
End ParserCopy.

(* the copy's tree of an original one is a fold, so that pe_hom applies *)
Definition of_ptree : ptree -> FCondParse.ptree :=
  foldt FCondParse.PId (fun q => FCondParse.PSel (of_quant q)) FCondParse.PNot (fun o => FCondParse.t_bin (of_bop o)).

Lemma parse_tree_copy ts : FCondParse.parse_tree (map of_tok ts) = of_pres of_ptree (parse_tree ts).
Proof.
  unfold FCondParse.parse_tree, FCondParse.parse_toks, parse_tree, parse_toks, FCondParse.fuel_for, fuel_for.
  rewrite map_length, (proj1 (pe_copy _ _ _ _ _)), (proj1 (pe_hom _ _ _ _ _)).
  destruct (pe PId PSel PNot t_bin (4 * length ts + 4) 3 ts) as [[t [|x r]]| |]; reflexivity.
Qed.

Lemma parse_copy s : FCondParse.parse s = omap of_ptree (parse s).
Proof.
  unfold FCondParse.parse, parse. rewrite lex_copy. destruct (lex s []) as [ts|c|c]; try reflexivity.
  cbn [omap]. rewrite parse_tree_copy. destruct (parse_tree ts); reflexivity.
Qed.

Lemma denv_copy vid vsel t :
  FCondGrammar.denv vid vsel (of_ptree t) = denv vid (fun q => vsel (of_quant q)) t.
Proof.
  unfold of_ptree. induction t as [n|q p|a IH|o l IH] using ptree_bin_ind; try reflexivity.
  - cbn [foldt FCondGrammar.denv denv]. rewrite IH. reflexivity.
  - rewrite bin_hom. destruct o; cbn [of_bop FCondParse.t_bin t_bin FCondGrammar.denv denv];
      induction IH as [|x l Hx _ IHl]; cbn [map forallb existsb]; congruence.
Qed.

Fixpoint to_expr (e : FCondGrammar.expr) : expr :=
  match e with
  | FCondGrammar.EId n => EId n
  | FCondGrammar.ESel q p => ESel (to_quant q) p
  | FCondGrammar.ENot a => ENot (to_expr a)
  | FCondGrammar.EAnd a b => EAnd (to_expr a) (to_expr b)
  | FCondGrammar.EOr a b => EOr (to_expr a) (to_expr b)
  end.

Lemma wf_expr_copy e : wf_expr (to_expr e) = FCondGrammar.wf_expr e.
Proof. induction e; cbn [to_expr wf_expr FCondGrammar.wf_expr]; try reflexivity; congruence. Qed.

Lemma semv_copy vid vsel vsel' e : (forall q p, vsel' (to_quant q) p = vsel q p) ->
  semv vid vsel' (to_expr e) = FCondGrammar.semv vid vsel e.
Proof. intros H. induction e; cbn [to_expr semv FCondGrammar.semv]; congruence. Qed.

Lemma SpellsT_copy i ts e : FCondGrammar.SpellsT i ts e -> SpellsT i (map to_tok ts) (to_expr e).
Proof.
  induction 1 as [n|q p| | | | | ]; rewrite ?map_app; cbn [map to_tok to_expr]; rewrite ?map_app;
    try (constructor; assumption).
  destruct q; [exact (sp_sel Q1 p) | exact (sp_sel QAny p) | exact (sp_sel QAll p)].
Qed.

Lemma Lay_copy b ts s : FCondGrammar.Lay b ts s -> Lay b (map to_tok ts) s.
Proof. induction 1; cbn [map to_tok]; constructor; assumption. Qed.

Lemma Spells_copy s e : FCondGrammar.Spells s e -> Spells s (to_expr e).
Proof.
  intros [ts [L T]]. exists (map to_tok ts). split; [apply Lay_copy | apply SpellsT_copy]; assumption.
Qed.

Lemma names_of_copy e : names_of (to_expr e) = FCondGrammar.names_of e.
Proof. induction e; cbn [to_expr names_of FCondGrammar.names_of]; congruence. Qed.

Lemma patterns_of_copy e : patterns_of (to_expr e) = FCondGrammar.patterns_of e.
Proof. induction e; cbn [to_expr patterns_of FCondGrammar.patterns_of]; congruence. Qed.

Lemma defined_copy dets e : defined dets (to_expr e) = FCondGrammar.defined dets e.
Proof. unfold defined. rewrite names_of_copy. reflexivity. Qed.

Lemma inhabited_copy dets e : inhabited dets (to_expr e) = FCondGrammar.inhabited dets e.
Proof. unfold inhabited. rewrite patterns_of_copy. reflexivity. Qed.

Lemma sem_copy dets asg e : sem dets asg (to_expr e) = FCondGrammar.sem dets asg e.
Proof. apply semv_copy. intros [] p; reflexivity. Qed.

Fixpoint of_ctree (c : ctree) : FCond.ctree :=
  match c with
  | CLeaf n => FCond.CLeaf n
  | CNot a => FCond.CNot (option_map of_ctree a)
  | CAnd l => FCond.CAnd (map (option_map of_ctree) l)
  | COr l => FCond.COr (map (option_map of_ctree) l)
  end.

Lemma collapse_copy o args :
  FCond.collapse (of_bop o) (map (option_map of_ctree) args) = option_map of_ctree (collapse o args).
Proof. destruct args as [|a [|b r]]; try reflexivity. destruct o; reflexivity. Qed.

Lemma sequence_copy {X Y Z} (g : Y -> Z) (f : X -> outcome Y) l :
  FCond.sequence (map (fun x => omap g (f x)) l) = omap (map g) (sequence (map f l)).
Proof.
  induction l as [|x l IH]; [reflexivity|]. cbn [map FCond.sequence sequence]. rewrite IH.
  destruct (f x); try reflexivity. destruct (sequence (map f l)); reflexivity.
Qed.

Lemma post_copy dets t : FCond.post dets (of_ptree t) = omap (option_map of_ctree) (post dets t).
Proof.
  unfold of_ptree. induction t as [n|q p|a IH|o l IH] using ptree_bin_ind.
  - cbn [foldt FCond.post post]. change FCond.mem_str with mem_str. destruct (mem_str n dets); reflexivity.
  - cbn [foldt FCond.post post omap]. rewrite resolve_copy, <- (collapse_copy (quant_op q)), map_map.
    destruct q; reflexivity.
  - cbn [foldt FCond.post post]. rewrite IH. destruct (post dets a); reflexivity.
  - rewrite bin_hom. destruct o; cbn [of_bop FCondParse.t_bin t_bin FCond.post post];
      rewrite map_map, (map_ext_Forall _ _ IH), sequence_copy;
      destruct (sequence (map (post dets) l)) as [args| |]; try reflexivity;
      cbn [omap obind]; f_equal; [apply (collapse_copy BAnd) | apply (collapse_copy BOr)].
Qed.

(* ctree is nested through list (option ctree) and has no induction principle for that: the inner induction on l
   calls ceval_copy on elements of l only, which the guard condition accepts *)
Fixpoint ceval_copy asg (c : ctree) {struct c} : FCond.ceval asg (of_ctree c) = ceval asg c.
Proof.
  destruct c as [n|[a|]|l|l]; cbn [of_ctree option_map FCond.ceval ceval]; try reflexivity;
    change @FCond.all_some with @all_some.
  2, 3: do 2 f_equal; induction l as [|[x|] l IHl]; cbn [map option_map]; rewrite ?ceval_copy; congruence.
  rewrite ceval_copy. reflexivity.
Qed.
