(* escape_and_quote_field (Model/FieldName.v): the target's field reader gives the field name back (C05). *)
From Coq Require Import NArith List Bool Arith Lia.
From PS Require Import Base.Chars Model.FieldName Proofs.CharsP.
Import ListNotations.
Local Open Scope nat_scope.

Section Roundtrip.
Variable K : fcfg.
Variable ec : char.
Variable pat : nat -> bool.
Hypothesis Hesc : f_escape K = Some [ec].

(* every occurrence of the escape character is matched by the escape pattern *)
Definition esc_covered (i : nat) (f : str) : Prop :=
  forall k c, nth_error f k = Some c -> c = ec -> pat (i + k) = true.

Lemma esc_covered_tl i c f : esc_covered i (c :: f) -> esc_covered (S i) f.
Proof. intros H k d Hk Hd. replace (S i + k) with (i + S k) by lia. apply (H (S k) d); auto. Qed.

Definition FB (q : option char) : str -> str -> Prop := Reads (fun fuel => fbody fuel (Some ec) q).

Lemma fb_nil : FB None [] [].
Proof. intros [|n] Hn; [inversion Hn | reflexivity]. Qed.

Lemma fb_close x : x <> ec -> FB (Some x) [x] [].
Proof.
  intros Hx [|n] Hn; [inversion Hn|]. cbn [fbody].
  destruct (N.eqb_spec ec x); [congruence|]. rewrite N.eqb_refl. reflexivity.
Qed.

Lemma fb_esc q c rest l : FB q rest l -> FB q (ec :: c :: rest) (c :: l).
Proof.
  apply (reads_token _ c [ec; c]); [discriminate|]. intros f. cbn [app fbody]. rewrite N.eqb_refl. reflexivity.
Qed.

Lemma fb_lit (q : option char) (c : char) rest l : N.eqb ec c = false ->
  (match q with Some x => N.eqb x c | None => false end) = false ->
  FB q rest l -> FB q (c :: rest) (c :: l).
Proof.
  intros He Hq. apply (reads_token _ c [c]); [discriminate|]. intros f. cbn [app fbody]. rewrite He, Hq. reflexivity.
Qed.

(* q: the terminator the reader looks for (None when the name is not quoted);
   a quote character inside a quoted name must be escaped *)
Lemma escape_from_fb q f : forall i rest l,
  esc_covered i f ->
  (forall x, q = Some x -> (f_quote K = Some x /\ f_escape_quote K = true) \/ ~ In x f) ->
  FB q rest l -> FB q (escape_from K [ec] pat i f ++ rest) (f ++ l).
Proof.
  induction f as [|c f IH]; intros i rest l Hc Hq HD; [exact HD|].
  cbn [escape_from]. rewrite <- app_assoc.
  apply (IH (S i)) in HD; [| exact (esc_covered_tl _ _ _ Hc) |].
  2: { intros x Hx. specialize (Hq x Hx). simpl in Hq. tauto. }
  destruct (esc_pos K pat i c) eqn:Ep; cbn [app]; [apply fb_esc, HD|].
  apply orb_false_iff in Ep as [Ep Eq]. apply fb_lit; [| | exact HD].
  - destruct (N.eqb_spec ec c) as [<-|]; [|reflexivity].
    specialize (Hc 0 ec eq_refl eq_refl). rewrite Nat.add_0_r in Hc. congruence.
  - destruct q as [x|]; [|reflexivity]. destruct (N.eqb_spec x c) as [->|]; [|reflexivity].
    destruct (Hq c eq_refl) as [[H1 H2]|Hin]; [|destruct Hin; left; reflexivity].
    rewrite H1, H2, N.eqb_refl in Eq. discriminate.
Qed.

(* The reader is told that the name is quoted exactly when escape_and_quote_field quotes it: the decision qd counts
   only when a quote character is configured. *)
Theorem field_roundtrip qd f :
  esc_covered 0 f ->
  (forall x, f_quote K = Some x -> qd = true -> x <> ec /\ (f_escape_quote K = true \/ ~ In x f)) ->
  fread (Some ec) (f_quote K) (match f_quote K with Some _ => qd | None => false end)
        (escape_and_quote_field K pat qd f) = Some f.
Proof.
  intros Hc Hq. unfold escape_and_quote_field. rewrite Hesc.
  assert (Hun : forall q, fread (Some ec) q false (escape_from K [ec] pat 0 f) = Some f).
  { intros q. pose proof (escape_from_fb None f 0 [] [] Hc) as H. rewrite !app_nil_r in H.
    apply H; [discriminate | exact fb_nil | lia]. }
  destruct (f_quote K) as [x|] eqn:Eq; [destruct qd|]; try apply Hun.
  destruct (Hq x eq_refl eq_refl) as [Hne Hin]. unfold fread. rewrite N.eqb_refl.
  pose proof (escape_from_fb (Some x) f 0 [x] [] Hc) as H. rewrite app_nil_r in H.
  apply H; [| exact (fb_close x Hne) | rewrite app_length; simpl; lia].
  intros y [= <-]. tauto.
Qed.
End Roundtrip.

(* the shipped test backend escapes nothing in field names but quotes with ': a name containing
   the quote character cannot be read back *)
Definition test_backend_fcfg : fcfg := {| f_quote := Some 39%N; f_escape := None; f_escape_quote := true |}.
Lemma field_quote_unescaped_refuted : exists f,
  fread None (Some 39%N) true (escape_and_quote_field test_backend_fcfg (fun _ => false) true f) <> Some f.
Proof. exists [97%N; 39%N; 98%N]. vm_compute. discriminate. Qed.
