(* C11 - one filter applied to one rule (Model/Filter.v): which rules it applies to; the token rewrite
   turns a spelling of the filter's condition into a spelling of the renamed expression; over the
   detection map apply_with builds, the new condition means (rule condition) AND (filter condition).
   wf_prefix, lower_draw, rn_pat, rename, ren, plain, reads, clean, no_us_patterns, defined below among the
   lemmas, are the words of the statements of Props/C11.v: changing one changes what C11 claims. *)
From Coq Require Import NArith ZArith List Bool.
From PS Require Import Base.Chars Model.FCondParse Model.FCond Spec.FGlob Spec.FCondGrammar
                       Proofs.FCondParseP Proofs.FCondP Model.Filter Spec.FilterSpec Proofs.CharsP.
Import ListNotations.
Open Scope N_scope.

Lemma covers_attr_spec a b : covers_attr a b = true <-> (forall x, a = Some x -> b = Some x).
Proof.
  destruct a as [x|]; simpl.
  - transitivity (b = Some x).
    + destruct b; rewrite ?str_eqb_eq; split; congruence.
    + split; [intros -> z [= <-]; reflexivity | auto].
  - split; [discriminate | reflexivity].
Qed.

Lemma attr_ok_spec s o : attr_ok s o = true <-> (forall x, s = Some x -> o = Some x).
Proof. rewrite <- covers_attr_spec. destruct s, o; reflexivity. Qed.

Lemma andb_iff a b A B : (a = true <-> A) -> (b = true <-> B) -> (a && b = true <-> A /\ B).
Proof. intros <- <-. apply andb_true_iff. Qed.

(* equal log sources pass the three attribute tests, so the shortcut of __contains__ changes nothing *)
Lemma ls_contains_attrs f r : ls_contains f r =
  attr_ok (ls_cat f) (ls_cat r) && (attr_ok (ls_prod f) (ls_prod r) && attr_ok (ls_serv f) (ls_serv r)).
Proof.
  unfold ls_contains. rewrite <- andb_assoc. destruct (ls_eqb f r) eqn:E; [|reflexivity].
  unfold ls_eqb in E. do 3 (apply andb_true_iff in E; destruct E as [E ?]).
  change attr_ok with ocovers. rewrite !ocovers_eq by assumption. reflexivity.
Qed.

Lemma ls_contains_covers f r : ls_contains f r = true <-> covers f r.
Proof. rewrite ls_contains_attrs. repeat apply andb_iff; apply attr_ok_spec. Qed.

Lemma lookup_ref_spec r ref : lookup_ref r ref = true <-> names_rule ref r.
Proof.
  destruct ref as [s [u|]|z]; simpl.
  - destruct (r_id r) as [i|]; [|split; discriminate].
    rewrite N.eqb_eq. split; congruence.
  - destruct (r_name r) as [n|]; [|split; discriminate].
    rewrite str_eqb_eq. split; congruence.
  - rewrite orb_true_iff, !Z.eqb_eq. tauto.
Qed.

(* t is lookup_ref r for the model and names_rule_b r for the oracle *)
Lemma targets_spec t f r : (forall ref, t ref = true <-> names_rule ref r) ->
  match f_rules f with FAny => true | FRefs l => existsb t l end = true <-> targets f r.
Proof.
  intros Ht. unfold targets. destruct (f_rules f) as [|l].
  - split; [left | ]; reflexivity.
  - split.
    + intros H. apply existsb_exists in H. destruct H as [ref [Hin H]]. apply Ht in H. right. exists l, ref. auto.
    + intros [H|[l' [ref [[= <-] [Hin H]]]]]; [discriminate|]. apply Ht in H. apply existsb_exists. exists ref. auto.
Qed.

Lemma is_detection_spec r : match r_kind r with KDetection => true | KCorrelation => false end = true <-> r_kind r = KDetection.
Proof. destruct (r_kind r); split; congruence. Qed.

Lemma filter_nilmpty {A} (f : A -> bool) l : match filter f l with [] => false | _ => true end = existsb f l.
Proof. induction l as [|x l IH]; simpl; [reflexivity|]. destruct (f x); [reflexivity | exact IH]. Qed.

Lemma should_apply_andb f r : should_apply f r =
  match r_kind r with KDetection => true | KCorrelation => false end &&
  (ls_contains (f_ls f) (r_ls r) && match f_rules f with FAny => true | FRefs l => existsb (lookup_ref r) l end).
Proof.
  unfold should_apply. destruct (r_kind r); [|reflexivity]. destruct (ls_contains (f_ls f) (r_ls r)); [|reflexivity].
  destruct (f_rules f); [reflexivity | apply filter_nilmpty].
Qed.

Theorem should_apply_iff f r : should_apply f r = true <-> applies f r.
Proof.
  rewrite should_apply_andb. apply andb_iff; [apply is_detection_spec|].
  apply andb_iff; [apply ls_contains_covers | apply targets_spec, lookup_ref_spec].
Qed.

Lemma names_rule_b_spec r ref : names_rule_b r ref = true <-> names_rule ref r.
Proof.
  rewrite <- lookup_ref_spec.
  destruct ref as [s [u|]|z]; simpl; [destruct (r_id r) | destruct (r_name r) | ]; reflexivity.
Qed.

Lemma covers_b_spec f r : covers_b f r = true <-> covers f r.
Proof. unfold covers_b. simpl. rewrite andb_true_r. repeat apply andb_iff; apply covers_attr_spec. Qed.

Theorem applies_b_spec f r : applies_b f r = true <-> applies f r.
Proof.
  unfold applies_b. rewrite <- andb_assoc. apply andb_iff; [apply is_detection_spec|].
  apply andb_iff; [apply covers_b_spec | apply targets_spec, names_rule_b_spec].
Qed.

Theorem untouched draws f r : should_apply f r = false -> apply_on_rule draws f r = Some (r, draws).
Proof. intros H. unfold apply_on_rule. rewrite H. reflexivity. Qed.

Definition rw_tok (p : str) (t : tok) : tok := match t with TW w => TW (repl p w) | x => x end.

(* all that is used of a prefix "_filt_<draw>": letters, digits and '_' only, beginning with '_' *)
Definition is_pfxc (c : char) : bool := is_alnum c || (c =? c_us).
Definition wf_prefix (p : str) : bool := forallb is_pfxc p && us p.

Lemma pfxc_identc c : is_pfxc c = true -> is_identc c = true.
Proof. unfold is_pfxc, is_identc. intros ->. reflexivity. Qed.
Lemma pfxc_patc c : is_pfxc c = true -> is_patc c = true.
Proof. unfold is_pfxc, is_patc. intros ->. reflexivity. Qed.
Lemma identc_wordc c : is_identc c = true -> is_wordc c = true.
Proof. unfold is_wordc. intros ->. reflexivity. Qed.
Lemma patc_wordc c : is_patc c = true -> is_wordc c = true.
Proof.
  unfold is_patc, is_wordc, is_identc. destruct (is_alnum c || (c =? c_us)); [reflexivity|].
  simpl. intros ->. apply orb_true_r.
Qed.
Lemma forallb_impl {A} (f g : A -> bool) l : (forall x, f x = true -> g x = true) -> forallb f l = true -> forallb g l = true.
Proof. intros H. rewrite !forallb_forall. auto. Qed.

Lemma wf_prefix_spec p : wf_prefix p = true <-> forallb is_pfxc p = true /\ us p = true.
Proof. apply andb_true_iff. Qed.

Lemma wf_prefix_words p : wf_prefix p = true -> forallb is_wordc p = true.
Proof.
  intros H. apply wf_prefix_spec in H. destruct H as [H _].
  revert H. apply forallb_impl. intros c Hc. apply identc_wordc, pfxc_identc, Hc.
Qed.

(* One renaming at four types: pre (Model/Filter.v) prefixes a name; repl (_replace_token) leaves keywords
   alone and renames every other word of the condition text as a pattern; rn_pat prefixes a pattern, 'them'
   becoming the pattern that selects every prefixed name; rename (below) is pre on the identifiers and rn_pat
   on the selector patterns of an expression. *)
Definition rn_pat (p pat : str) : str := if str_eqb pat w_them then p ++ [c_us; c_star] else pre p pat.

Lemma repl_keyword p w : is_keyword_ci w = true -> repl p w = w.
Proof. unfold repl. intros ->. reflexivity. Qed.

Lemma repl_other p w : is_keyword_ci w = false -> repl p w = rn_pat p w.
Proof. unfold repl. intros ->. reflexivity. Qed.

Lemma rn_pat_pre p pat : rn_pat p pat = pre p (if str_eqb pat w_them then [c_star] else pat).
Proof. unfold rn_pat. destruct (str_eqb pat w_them); reflexivity. Qed.

Lemma repl_word p w : forallb is_wordc p = true -> word w -> word (repl p w).
Proof.
  intros Hp [Hn Hw]. destruct (is_keyword_ci w) eqn:K; [rewrite repl_keyword by exact K; split; assumption|].
  rewrite repl_other, rn_pat_pre by exact K. split; [destruct p; discriminate|].
  unfold pre. rewrite forallb_app, Hp. destruct (str_eqb w w_them); [reflexivity | exact Hw].
Qed.

Lemma rw_word p w : forallb is_wordc w = true -> forall s cur, rw p (w ++ s) cur = rw p s (rev w ++ cur).
Proof.
  induction w as [|c w IH]; simpl; intros H s cur; [reflexivity|].
  apply andb_true_iff in H. destruct H as [H1 H2]. rewrite H1, IH by assumption.
  rewrite <- app_assoc. reflexivity.
Qed.

Definition breaks (s : str) : Prop := match s with [] => True | c :: _ => is_wordc c = false end.

Lemma rw_break p s cur : breaks s -> rw p s cur = flush_tok p cur ++ rw p s [].
Proof. destruct s as [|c s]; simpl; [intros _; symmetry; apply app_nil_r | intros ->; reflexivity]. Qed.

Lemma flush_tok_rev p w : w <> [] -> flush_tok p (rev w) = repl p w.
Proof.
  intros H. unfold flush_tok. destruct (rev w) eqn:E; [|rewrite <- E, rev_involutive; reflexivity].
  rewrite <- (rev_involutive w), E in H. contradiction.
Qed.

Lemma rw_one_word p w s : word w -> breaks s -> rw p (w ++ s) [] = repl p w ++ rw p s [].
Proof. intros [Hn Hw] Hs. rewrite rw_word, app_nil_r, rw_break, flush_tok_rev by assumption. reflexivity. Qed.

Lemma lpar_not_word : is_wordc c_lpar = false. Proof. reflexivity. Qed.
Lemma rpar_not_word : is_wordc c_rpar = false. Proof. reflexivity. Qed.

Lemma breaks_blanks ws s : blanks ws -> (ws = [] -> breaks s) -> breaks (ws ++ s).
Proof.
  destruct ws as [|c ws]; [auto|]. intros H _. apply andb_true_iff in H. apply blank_not_word, H.
Qed.

Lemma lay_true_breaks ts s : Lay true ts s -> breaks s.
Proof.
  inversion 1 as [b ws Hb | b ws w ts' s' Hb Hsep Hw HL | b ws ts' s' Hb HL | b ws ts' s' Hb HL]; subst.
  - rewrite <- (app_nil_r s). apply breaks_blanks; [exact Hb | reflexivity].
  - apply breaks_blanks; [exact Hb|]. intros E. destruct (Hsep eq_refl E).
  - apply breaks_blanks; [exact Hb|]. intros _. exact lpar_not_word.
  - apply breaks_blanks; [exact Hb|]. intros _. exact rpar_not_word.
Qed.

Lemma rw_blanks p ws s : blanks ws -> rw p (ws ++ s) [] = ws ++ rw p s [].
Proof.
  unfold blanks. induction ws as [|c ws IH]; simpl; intros H; [reflexivity|].
  apply andb_true_iff in H. destruct H as [H1 H2]. rewrite (blank_not_word _ H1), IH by assumption. reflexivity.
Qed.

Lemma rw_lay p : forallb is_wordc p = true -> forall b ts s, Lay b ts s -> Lay b (map (rw_tok p) ts) (rewrite p s).
Proof.
  intros Hp b ts s H. unfold rewrite.
  induction H as [b ws Hb | b ws w ts s Hb Hsep Hw HL IH | b ws ts s Hb HL IH | b ws ts s Hb HL IH];
    try rewrite rw_blanks by assumption.
  - rewrite <- (app_nil_r ws), rw_blanks by assumption. simpl. rewrite app_nil_r. apply lay_nil. exact Hb.
  - rewrite rw_one_word; [|exact Hw|exact (lay_true_breaks _ _ HL)].
    apply lay_word; try assumption. apply repl_word; assumption.
  - apply lay_lpar; assumption.
  - apply lay_rpar; assumption.
Qed.

Lemma lay_close b ts s : Lay b ts s -> forall ts2 s2, Lay false ts2 s2 -> Lay b (ts ++ TR :: ts2) (s ++ c_rpar :: s2).
Proof.
  induction 1; intros ts2 s2 L2; simpl; rewrite <- ?app_assoc; constructor; auto.
Qed.

(* the tokens of "(c) and (f)", grouped the way the grammar reads them *)
Definition conj_toks (tc tf : list tok) : list tok := (TL :: tc ++ [TR]) ++ TW w_and :: TL :: tf ++ [TR].

Lemma new_cond_lay tc c tf fc : Lay false tc c -> Lay false tf fc -> Lay false (conj_toks tc tf) (new_cond c fc).
Proof.
  intros Hc Hf. unfold conj_toks, new_cond, s_mid. simpl. rewrite <- app_assoc.
  apply (lay_lpar false []); [reflexivity|]. apply lay_close; [exact Hc|].
  apply (lay_word false [32] w_and); [reflexivity | discriminate | split; [discriminate|reflexivity] |].
  apply (lay_lpar true [32]); [reflexivity|]. apply lay_close; [exact Hf|]. apply (lay_nil false []). reflexivity.
Qed.

Lemma conj_toks_spell tc tf e ef : SpellsT 3 tc e -> SpellsT 3 tf ef -> SpellsT 3 (conj_toks tc tf) (EAnd e ef).
Proof.
  intros Sc Sf. apply (sp_up 2), sp_and.
  - apply (sp_up 1), (sp_up 0), sp_par, Sc.
  - apply (sp_up 0), sp_par, Sf.
Qed.

Fixpoint rename (p : str) (e : expr) : expr :=
  match e with
  | EId n => EId (pre p n)
  | ESel q pat => ESel q (rn_pat p pat)
  | ENot a => ENot (rename p a)
  | EAnd a b => EAnd (rename p a) (rename p b)
  | EOr a b => EOr (rename p a) (rename p b)
  end.

(* identifiers and patterns of the filter condition are not keywords of the rewrite (in any letter
   case); identifiers are not 'them' *)
Fixpoint plain (e : expr) : bool :=
  match e with
  | EId n => negb (is_keyword_ci n) && negb (str_eqb n w_them)
  | ESel _ pat => negb (is_keyword_ci pat)
  | ENot a => plain a
  | EAnd a b | EOr a b => plain a && plain b
  end.

Lemma repl_qword p q : repl p (qword q) = qword q.
Proof. destruct q; reflexivity. Qed.

Lemma spells_rename p i ts e : SpellsT i ts e -> plain e = true -> SpellsT i (map (rw_tok p) ts) (rename p e).
Proof.
  induction 1 as [n | q pat | ts e H IH | ts e H IH | ts1 ts2 a b H1 IH1 H2 IH2 | ts1 ts2 a b H1 IH1 H2 IH2 | i ts e H IH];
    simpl; rewrite ?map_app; simpl; intros Hp.
  - apply andb_true_iff in Hp. destruct Hp as [K T]. apply negb_true_iff in K, T.
    rewrite repl_other, rn_pat_pre, T by exact K. apply sp_id.
  - apply negb_true_iff in Hp. rewrite repl_qword, (repl_other p pat) by exact Hp. apply sp_sel.
  - apply sp_par, IH, Hp.
  - apply sp_not, IH, Hp.
  - apply andb_true_iff in Hp. apply sp_and; [apply IH1 | apply IH2]; apply Hp.
  - apply andb_true_iff in Hp. apply sp_or; [apply IH1 | apply IH2]; apply Hp.
  - apply sp_up, IH, Hp.
Qed.

Lemma us_cons p : us p = true -> exists p', p = c_us :: p'.
Proof. destruct p as [|c p']; simpl; [discriminate|]. intros H. apply N.eqb_eq in H. subst. eauto. Qed.

Lemma us_pre p n : us p = true -> us (pre p n) = true.
Proof. intros H. destruct (us_cons _ H) as [p' ->]. reflexivity. Qed.

Lemma pre_not_reserved p n : us p = true -> reserved (pre p n) = false.
Proof. intros H. destruct (us_cons _ H) as [p' ->]. reflexivity. Qed.

Lemma forallb_pre K p n : (forall c, is_pfxc c = true -> K c = true) ->
  forallb is_pfxc p = true -> forallb K n = true -> forallb K (pre p n) = true.
Proof.
  intros HK Hp Hn. unfold pre. rewrite forallb_app. simpl.
  rewrite (forallb_impl _ _ _ HK Hp), (HK c_us eq_refl). exact Hn.
Qed.

Lemma nonempty_pre p n : nonempty (pre p n) = true.
Proof. destruct p; reflexivity. Qed.

Lemma wf_rename p e : wf_prefix p = true -> wf_expr e = true -> wf_expr (rename p e) = true.
Proof.
  intros Hp. apply wf_prefix_spec in Hp. destruct Hp as [Hc Hu].
  induction e as [n|q pat|a IH|a IHa b IHb|a IHa b IHb]; simpl; intros H.
  - apply andb_true_iff in H. destruct H as [H _]. apply andb_true_iff in H.
    unfold is_ident. rewrite nonempty_pre, pre_not_reserved, (forallb_pre _ _ _ pfxc_identc) by (assumption || apply H).
    reflexivity.
  - apply andb_true_iff in H.
    unfold is_pat. rewrite rn_pat_pre, nonempty_pre, (forallb_pre _ _ _ pfxc_patc); try assumption; [reflexivity|].
    destruct (str_eqb pat w_them); [reflexivity | apply H].
  - auto.
  - apply andb_true_iff in H. rewrite IHa, IHb by apply H. reflexivity.
  - apply andb_true_iff in H. rewrite IHa, IHb by apply H. reflexivity.
Qed.

Lemma names_rename p e : names_of (rename p e) = map (pre p) (names_of e).
Proof. induction e; simpl; try reflexivity; try assumption; rewrite map_app; congruence. Qed.
Lemma patterns_rename p e : patterns_of (rename p e) = map (rn_pat p) (patterns_of e).
Proof. induction e; simpl; try reflexivity; try assumption; rewrite map_app; congruence. Qed.

(* selected is gsel globb of CharsP by conversion, and globb_cons the step Section GlobPrefix there asks of a matcher *)
Lemma globb_cons c p n : N.eqb c c_star = false ->
  globb (c :: p) n = match n with [] => false | d :: n' => N.eqb c d && globb p n' end.
Proof. intros H. simpl. rewrite H. destruct n; [reflexivity | rewrite N.eqb_sym; reflexivity]. Qed.

Lemma pfxc_nostar p : forallb is_pfxc p = true -> ~ In c_star p.
Proof. intros H Hin. rewrite forallb_forall in H. discriminate (H _ Hin). Qed.

Lemma prefixb_app_l a b m : prefixb (a ++ b) m = true -> prefixb a m = true.
Proof. intros H. apply prefixb_spec in H. destruct H as [r ->]. rewrite <- app_assoc. apply prefixb_app. Qed.

Section Sel.
  Variable p : str.
  Hypothesis Hp : wf_prefix p = true.

  Lemma selected_rn_out pat m : prefixb p m = false -> selected (rn_pat p pat) m = false.
  Proof.
    apply wf_prefix_spec in Hp. destruct Hp as [Hc Hu]. rewrite rn_pat_pre.
    apply (gsel_out globb globb_cons); [exact Hu | apply pfxc_nostar, Hc].
  Qed.

  Lemma selected_rn pat n : us n = false -> selected (rn_pat p pat) (pre p n) = selected pat n.
  Proof.
    apply wf_prefix_spec in Hp. destruct Hp as [Hc Hu]. intros Hn.
    rewrite rn_pat_pre. unfold selected at 2. rewrite Hn, orb_true_r, andb_true_r.
    etransitivity; [apply (gsel_in globb globb_cons); [exact Hu | apply pfxc_nostar, Hc]|].
    destruct (str_eqb pat w_them); [exact (some_suffix_end (globb []) n eq_refl) | reflexivity].
  Qed.
End Sel.

(* a binding of the filter as add_dets enters it in the rule's map *)
Definition ren (p : str) (nd : str * N) : str * N := (pre p (fst nd), snd nd).

Lemma names_app a b : names (a ++ b) = names a ++ names b.
Proof. apply map_app. Qed.
Lemma names_ren p d : names (map (ren p) d) = map (pre p) (names d).
Proof. unfold names. rewrite !map_map. reflexivity. Qed.

Lemma dict_set_absent d k v : ~ In k (names d) -> dict_set d k v = d ++ [(k, v)].
Proof.
  induction d as [|[k' v'] d IH]; simpl; intros H; [reflexivity|].
  destruct (str_eqb k' k) eqn:E.
  - apply str_eqb_eq in E. tauto.
  - rewrite IH by tauto. reflexivity.
Qed.

Lemma add_dets_append p fd : forall acc,
  (forall n, In n (names fd) -> ~ In (pre p n) (names acc)) -> NoDup (names fd) ->
  add_dets p fd acc = acc ++ map (ren p) fd.
Proof.
  unfold add_dets. induction fd as [|[n v] fd IH]; intros acc Hf Hnd; simpl.
  - symmetry. apply app_nil_r.
  - inversion_clear Hnd as [|? ? Hn Hnd'].
    rewrite dict_set_absent by (apply Hf; left; reflexivity). rewrite IH, <- app_assoc; [reflexivity | | exact Hnd'].
    intros m Hm Hin. rewrite names_app in Hin. apply in_app_or in Hin. destruct Hin as [Hin|[Hin|[]]].
    + apply (Hf m); [right; exact Hm | exact Hin].
    + apply under_inj in Hin. subst. contradiction.
Qed.

Lemma lookup_app a b n : lookup (a ++ b) n = match lookup a n with Some v => Some v | None => lookup b n end.
Proof. induction a as [|[k v] a IH]; simpl; [reflexivity|]. destruct (str_eqb k n); [reflexivity|exact IH]. Qed.

Lemma lookup_none d n : lookup d n = None <-> ~ In n (names d).
Proof.
  induction d as [|[k v] d IH]; simpl; [tauto|].
  destruct (str_eqb k n) eqn:E.
  - apply str_eqb_eq in E. split; [discriminate | tauto].
  - rewrite IH. split; [|tauto]. intros H [->|H']; [rewrite str_eqb_refl in E; discriminate | exact (H H')].
Qed.

Lemma str_eqb_pre p a b : str_eqb (pre p a) (pre p b) = str_eqb a b.
Proof. exact (str_eqb_app_l p (c_us :: a) (c_us :: b)). Qed.

Lemma lookup_ren p d n : lookup (map (ren p) d) (pre p n) = lookup d n.
Proof. induction d as [|[k v] d IH]; simpl; [reflexivity|]. rewrite str_eqb_pre, IH. reflexivity. Qed.

Lemma sel_names_app a b pat : sel_names (a ++ b) pat = sel_names a pat ++ sel_names b pat.
Proof. apply filter_app. Qed.

Lemma defined_incl d e : defined d e = true <-> incl (names_of e) d.
Proof. unfold defined, incl. rewrite forallb_forall. split; intros H n Hn; apply existsb_str_In, H, Hn. Qed.

Lemma inhabited_spec d e : inhabited d e = true <-> forall pat, In pat (patterns_of e) -> exists n, In n (sel_names d pat).
Proof.
  unfold inhabited. rewrite forallb_forall. split; intros H pat Hp; specialize (H pat Hp).
  - destruct (sel_names d pat) as [|n l]; [discriminate | exists n; left; reflexivity].
  - destruct H as [n Hn]. destruct (sel_names d pat); [destruct Hn | reflexivity].
Qed.

Lemma semv_ext vid vsel vid' vsel' e :
  (forall n, In n (names_of e) -> vid n = vid' n) ->
  (forall q pat, In pat (patterns_of e) -> vsel q pat = vsel' q pat) ->
  semv vid vsel e = semv vid' vsel' e.
Proof.
  induction e as [n|q pat|a IH|a IHa b IHb|a IHa b IHb]; simpl; intros Hn Hs.
  - apply Hn. left. reflexivity.
  - apply Hs. left. reflexivity.
  - rewrite IH; auto.
  - rewrite IHa, IHb; auto using in_or_app.
  - rewrite IHa, IHb; auto using in_or_app.
Qed.

Lemma semv_rename p vid vsel e :
  semv vid vsel (rename p e) = semv (fun n => vid (pre p n)) (fun q pat => vsel q (rn_pat p pat)) e.
Proof. induction e; simpl; congruence. Qed.

(* used with h the identity for the rule's selectors and h = pre p for the filter's *)
Lemma sel_val_map h d d' asg asg' q pat pat' :
  sel_names d' pat' = map h (sel_names d pat) ->
  (forall x, In x (sel_names d pat) -> asg' (h x) = asg x) ->
  sel_val d' asg' q pat' = sel_val d asg q pat.
Proof.
  unfold sel_val. intros -> H.
  destruct q; induction (sel_names d pat) as [|x l IH]; simpl in *; auto; rewrite H, IH; auto.
Qed.

(* no pattern of the rule's condition selects a renamed filter detection *)
Definition clean (p : str) (nf : list str) (e : expr) : bool :=
  forallb (fun pat => forallb (fun n => negb (selected pat (pre p n))) nf) (patterns_of e).

(* what is asked of a condition of the rule / of the filter: it is a spelling (any blanks, any
   redundant parentheses) of a well-formed expression whose names are detections of its own side and
   whose selectors select something *)
Definition reads (d : dets) (c : str) (e : expr) : Prop :=
  Spells c e /\ wf_expr e = true /\ defined (names d) e = true /\ inhabited (names d) e = true.

Lemma reads_value d c e asgd : reads d c e -> cond_value d c asgd = Some (sem (names d) (asg_of d asgd) e).
Proof.
  intros [HS [Hw [Hd Hi]]]. destruct (meaning e c (names d) Hw HS Hd Hi) as [t [k [Ht [Hk Hev]]]].
  unfold cond_value, cond_tree, run_post. rewrite Ht. simpl. rewrite Hk. apply Hev.
Qed.

Lemma spells_new_cond p c e fc ef :
  forallb is_wordc p = true -> Spells c e -> Spells fc ef -> plain ef = true ->
  Spells (new_cond c (rewrite p fc)) (EAnd e (rename p ef)).
Proof.
  intros Hp [tc [Lc Sc]] [tf [Lf Sf]] Hpl. exists (conj_toks tc (map (rw_tok p) tf)). split.
  - apply new_cond_lay; [exact Lc|]. apply rw_lay; assumption.
  - apply conj_toks_spell; [exact Sc|]. apply spells_rename; assumption.
Qed.

Section Applied.
  Variables (p : str) (dr df : dets).
  Hypothesis Hp : wf_prefix p = true.
  Hypothesis Hf : fresh p dr = true.
  Hypothesis Hus : forall n, In n (names df) -> us n = false.

  Let d' := dr ++ map (ren p) df.     (* what apply_with leaves in the rule: apply_with_dets *)

  Lemma names_new : names d' = names dr ++ map (pre p) (names df).
  Proof. unfold d'. rewrite names_app, names_ren. reflexivity. Qed.

  Lemma asg_rule_side asgd n : In n (names dr) -> asg_of d' asgd n = asg_of dr asgd n.
  Proof.
    intros H. unfold asg_of, d'. rewrite lookup_app. destruct (lookup dr n) eqn:E; [reflexivity|].
    apply lookup_none in E. contradiction.
  Qed.

  Lemma asg_filter_side asgd n : asg_of d' asgd (pre p n) = asg_of df asgd n.
  Proof.
    pose proof (proj2 (lookup_none dr (pre p n)) (no_prefix_under p dr n Hf)) as H.
    unfold asg_of, d'. rewrite lookup_app, H, lookup_ren. reflexivity.
  Qed.

  Lemma sel_rule_side pat : forallb (fun n => negb (selected pat (pre p n))) (names df) = true ->
    sel_names (names d') pat = sel_names (names dr) pat.
  Proof.
    intros H. rewrite names_new, sel_names_app. unfold sel_names at 2. rewrite filter_nil, app_nil_r; [reflexivity|].
    intros x Hx. apply in_map_iff in Hx. destruct Hx as [n [<- Hn]]. rewrite forallb_forall in H.
    apply negb_true_iff, H, Hn.
  Qed.

  Lemma sel_filter_side pat : sel_names (names d') (rn_pat p pat) = map (pre p) (sel_names (names df) pat).
  Proof.
    rewrite names_new, sel_names_app. unfold sel_names at 1. rewrite filter_nil.
    - simpl. unfold sel_names. rewrite filter_map_comm. f_equal. apply filter_ext_in.
      intros n Hn. apply selected_rn; [exact Hp | apply Hus, Hn].
    - intros m Hm. apply selected_rn_out; [exact Hp | apply (proj1 (no_prefix_spec _ _) Hf _ Hm)].
  Qed.

  Lemma sem_rule_side e asgd : defined (names dr) e = true -> clean p (names df) e = true ->
    sem (names d') (asg_of d' asgd) e = sem (names dr) (asg_of dr asgd) e.
  Proof.
    unfold clean. intros Hd Hc. apply defined_incl in Hd. rewrite forallb_forall in Hc. apply semv_ext.
    - intros n Hn. apply asg_rule_side, Hd, Hn.
    - intros q pat Hpat. apply (sel_val_map (fun x => x)).
      + rewrite map_id. apply sel_rule_side, Hc, Hpat.
      + intros x Hx. apply asg_rule_side. apply filter_In in Hx. apply Hx.
  Qed.

  Lemma sem_filter_side ef asgd : sem (names d') (asg_of d' asgd) (rename p ef) = sem (names df) (asg_of df asgd) ef.
  Proof.
    unfold sem. rewrite semv_rename. apply semv_ext.
    - intros n _. apply asg_filter_side.
    - intros q pat _. apply (sel_val_map (pre p)); [apply sel_filter_side | intros x _; apply asg_filter_side].
  Qed.

  Lemma defined_new e ef : defined (names dr) e = true -> defined (names df) ef = true ->
    defined (names d') (EAnd e (rename p ef)) = true.
  Proof.
    intros H1 H2. apply defined_incl in H1, H2. apply defined_incl. simpl. rewrite names_new, names_rename.
    apply incl_app; [apply incl_appl, H1 | apply incl_appr, incl_map, H2].
  Qed.

  Lemma inhabited_new e ef : inhabited (names dr) e = true -> inhabited (names df) ef = true ->
    inhabited (names d') (EAnd e (rename p ef)) = true.
  Proof.
    intros H1 H2. apply inhabited_spec. simpl. rewrite patterns_rename. intros pat Hpat.
    apply in_app_or in Hpat. destruct Hpat as [Hpat|Hpat].
    - destruct (proj1 (inhabited_spec _ _) H1 _ Hpat) as [n Hn].
      exists n. rewrite names_new, sel_names_app. apply in_or_app. left. exact Hn.
    - apply in_map_iff in Hpat. destruct Hpat as [pat0 [<- Hpat]].
      destruct (proj1 (inhabited_spec _ _) H2 _ Hpat) as [n Hn].
      exists (pre p n). rewrite sel_filter_side. apply in_map, Hn.
  Qed.

  Lemma reads_new c e fc ef : reads dr c e -> reads df fc ef -> plain ef = true ->
    reads d' (new_cond c (rewrite p fc)) (EAnd e (rename p ef)).
  Proof.
    intros [HS [Hw [Hd Hi]]] [HSf [Hwf [Hdf Hif]]] Hpl.
    split; [apply spells_new_cond; try assumption; apply wf_prefix_words, Hp|].
    split; [simpl; rewrite Hw; apply wf_rename; assumption|].
    split; [apply defined_new; assumption | apply inhabited_new; assumption].
  Qed.
End Applied.

Definition is_lowerc (c : char) : bool := (97 <=? c) && (c <=? 122).
Definition lower_draw (d : str) : bool := forallb is_lowerc d.     (* what random.choices(ascii_lowercase, k) returns *)

Lemma lowerc_pfxc c : is_lowerc c = true -> is_pfxc c = true.
Proof. unfold is_lowerc, is_pfxc, is_alnum. intros ->. rewrite !orb_true_r. reflexivity. Qed.

Lemma wf_prefix_of d : lower_draw d = true -> wf_prefix (prefix_of d) = true.
Proof.
  intros H. apply wf_prefix_spec. split; [|reflexivity]. unfold prefix_of. rewrite forallb_app.
  apply (forallb_impl _ _ _ lowerc_pfxc) in H. rewrite H. reflexivity.
Qed.

Lemma pick_spec (P : str -> Prop) draws d p rest : Forall P draws -> pick draws d = Some (p, rest) ->
  (exists x, P x /\ p = prefix_of x) /\ fresh p d = true /\ Forall P rest.
Proof.
  induction 1 as [|x draws Hx HF IH]; simpl; [discriminate|].
  destruct (fresh (prefix_of x) d) eqn:E; [|exact IH].
  intros [= <- <-]. eauto.
Qed.

Lemma apply_on_rule_inv (P : str -> Prop) draws f r r' rest :
  Forall P draws -> apply_on_rule draws f r = Some (r', rest) ->
  Forall P rest /\
  if should_apply f r
  then exists x, P x /\ fresh (prefix_of x) (r_dets r) = true /\ r' = apply_with (prefix_of x) f r
  else r' = r.
Proof.
  intros HF. unfold apply_on_rule. destruct (should_apply f r).
  - destruct (pick draws (r_dets r)) as [[p rest']|] eqn:E; [|discriminate].
    destruct (pick_spec P _ _ _ _ HF E) as [[x [Hx ->]] [Hfr HF']]. intros [= <- <-]. eauto.
  - intros [= <- <-]. auto.
Qed.

Lemma Forall2_map_self {A B} (P : A -> B -> Prop) (g : A -> B) l : Forall (fun c => P c (g c)) l -> Forall2 P l (map g l).
Proof. induction 1; simpl; constructor; assumption. Qed.

Lemma apply_with_dets p f r : fresh p (r_dets r) = true -> NoDup (names (f_dets f)) ->
  r_dets (apply_with p f r) = r_dets r ++ map (ren p) (f_dets f).
Proof. intros Hf. apply add_dets_append. intros n _. apply no_prefix_under, Hf. Qed.

Theorem meaning_with p f r ef :
  wf_prefix p = true -> fresh p (r_dets r) = true -> NoDup (names (f_dets f)) ->
  reads (f_dets f) (f_cond f) ef -> plain ef = true ->
  (forall n, In n (names (f_dets f)) -> us n = false) ->
  Forall (fun c => exists e, reads (r_dets r) c e /\ clean p (names (f_dets f)) e = true) (r_conds r) ->
  r_dets (apply_with p f r) = r_dets r ++ map (ren p) (f_dets f) /\ narrowed r f (apply_with p f r).
Proof.
  intros Hp Hf Hnd Hrf Hpl Hus Hr.
  pose proof (apply_with_dets p f r Hf Hnd) as D. split; [exact D|].
  unfold narrowed. unfold apply_with at 2. cbn [r_conds with_detection]. apply Forall2_map_self.
  rewrite D. revert Hr. apply Forall_impl. intros c [e [Hre Hc]] asgd.
  do 2 eexists. split; [apply reads_value, Hre|]. split; [apply reads_value, Hrf|].
  rewrite (reads_value _ _ _ _ (reads_new p _ _ Hp Hf Hus _ _ _ _ Hre Hrf Hpl)). f_equal.
  apply (f_equal2 andb); [apply sem_rule_side; [apply Hre | exact Hc] | apply sem_filter_side; assumption].
Qed.

(* patterns that do not begin with '_' never select a renamed filter detection *)
Definition no_us_patterns (e : expr) : bool := forallb (fun pat => negb (us pat)) (patterns_of e).

Lemma selected_no_us p pat n : us p = true -> us pat = false -> selected pat (pre p n) = false.
Proof. intros Hu Hpat. unfold selected. rewrite (us_pre p n Hu), Hpat. apply andb_false_r. Qed.

Lemma clean_no_us p nf e : us p = true -> no_us_patterns e = true -> clean p nf e = true.
Proof.
  intros Hu. apply forallb_impl. intros pat Hpat. apply forallb_forall. intros n _.
  rewrite selected_no_us; [reflexivity | exact Hu | apply negb_true_iff, Hpat].
Qed.

(* a pattern that an earlier filter left behind under a prefix p selects only names that begin with p; were one
   of them under a prefix q of the same length, q would be p; but q is fresh for what that filter added, and it
   added something, the pattern being inhabited *)
Lemma clean_rename p q df ef nf :
  wf_prefix p = true -> length p = length q -> inhabited (names df) ef = true ->
  fresh q (map (ren p) df) = true -> clean q nf (rename p ef) = true.
Proof.
  intros Hp HL Hi Hf. unfold clean. rewrite patterns_rename. apply forallb_forall. intros pat' Hpat.
  apply in_map_iff in Hpat. destruct Hpat as [pat [<- Hpat]].
  apply forallb_forall. intros n _. apply negb_true_iff, (selected_rn_out p Hp).
  destruct (prefixb p (pre q n)) eqn:E; [|reflexivity].
  apply (prefixb_same_len p q) in E; [|exact HL|apply prefixb_app]. subst q.
  rewrite inhabited_spec in Hi. destruct (Hi _ Hpat) as [n0 Hn0].
  apply filter_In in Hn0. destruct (no_prefix_under p _ n0 Hf : ~ In _ (names _)). rewrite names_ren. apply (in_map (pre p)), Hn0.
Qed.

Lemma clean_and p nf a b : clean p nf (EAnd a b) = clean p nf a && clean p nf b.
Proof. apply forallb_app. Qed.

Theorem meaning_main draws f r ef r' rest :
  should_apply f r = true ->
  Forall (fun d => lower_draw d = true) draws ->
  NoDup (names (f_dets f)) ->
  reads (f_dets f) (f_cond f) ef -> plain ef = true ->
  (forall n, In n (names (f_dets f)) -> us n = false) ->
  Forall (fun c => exists e, reads (r_dets r) c e /\ no_us_patterns e = true) (r_conds r) ->
  apply_on_rule draws f r = Some (r', rest) ->
  (exists p, r_dets r' = r_dets r ++ map (ren p) (f_dets f)) /\ narrowed r f r'.
Proof.
  intros Ha Hdr Hnd Hrf Hpl Hus Hr H.
  apply (apply_on_rule_inv _ _ _ _ _ _ Hdr) in H. rewrite Ha in H. destruct H as [_ [x [Hx [Hf ->]]]].
  destruct (meaning_with (prefix_of x) f r ef (wf_prefix_of x Hx) Hf Hnd Hrf Hpl Hus) as [D N]; [|eauto].
  revert Hr. apply Forall_impl. intros c [e [R C]]. exists e. split; [exact R|].
  apply clean_no_us; [reflexivity | exact C].
Qed.

(* refutations outside the premises; each witness is replayed on the real code *)
Definition ls_a : logsource := {| ls_cat := Some [97]; ls_prod := None; ls_serv := None; ls_def := None |}.
Definition mk_rule (d : dets) (c : str) : rule :=
  {| r_kind := KDetection; r_id := None; r_name := None; r_ls := ls_a; r_dets := d; r_conds := [c] |}.
Definition mk_filter (d : dets) (c : str) : sfilter := {| f_ls := ls_a; f_rules := FAny; f_dets := d; f_cond := c |}.
Definition draw_a : str := repeat 97 10.                               (* "aaaaaaaaaa" *)
Definition n_sel : str := [115;101;108].                               (* sel *)
Definition n_flt : str := [102;108;116].                               (* flt *)
Definition s_not_flt : str := [110;111;116;32;102;108;116].            (* not flt *)

Lemma not_narrowed_by_value r f r' c c' asgd x y z :
  r_conds r = [c] -> r_conds r' = [c'] ->
  cond_value (r_dets r) c asgd = Some x -> cond_value (f_dets f) (f_cond f) asgd = Some y ->
  cond_value (r_dets r') c' asgd = Some z -> z <> (x && y) -> ~ narrowed r f r'.
Proof.
  intros Hc Hc' Hx Hy Hz Hne N. unfold narrowed in N. rewrite Hc, Hc' in N.
  inversion_clear N as [|? ? ? ? H _]. destruct (H asgd) as [x' [y' [E1 [E2 E3]]]]. congruence.
Qed.

(* D15: rule  _s: ...  condition "not 1 of _*";  filter  flt: ...  condition "flt"
   (applied: not (_s or flt) and flt, which is never true) *)
Definition w15_rule := mk_rule [([95;115], 0)] [110;111;116;32;49;32;111;102;32;95;42].
Definition w15_filter := mk_filter [(n_flt, 1)] n_flt.
Theorem underscore_capture_refuted :
  exists draws f r r' rest, should_apply f r = true /\ apply_on_rule draws f r = Some (r', rest) /\ ~ narrowed r f r'.
Proof.
  exists [draw_a], w15_filter, w15_rule. do 2 eexists. split; [reflexivity|]. split; [reflexivity|].
  eapply (not_narrowed_by_value _ _ _ _ _ (fun d => d =? 1) true true false); try reflexivity. discriminate.
Qed.

(* keyword-named filter detection: rule  sel, Not  condition "sel";  filter  Not  condition "Not" *)
Definition n_Not : str := [78;111;116].
Definition wkw_rule := mk_rule [(n_sel, 0); (n_Not, 1)] n_sel.
Definition wkw_filter := mk_filter [(n_Not, 2)] n_Not.
Theorem keyword_name_refuted :
  exists draws f r r' rest, should_apply f r = true /\ apply_on_rule draws f r = Some (r', rest) /\ ~ narrowed r f r'.
Proof.
  exists [draw_a], wkw_filter, wkw_rule. do 2 eexists. split; [reflexivity|]. split; [reflexivity|].
  eapply (not_narrowed_by_value _ _ _ _ _ (fun d => negb (d =? 2)) true false true); try reflexivity. discriminate.
Qed.

(* filter detection beginning with '_': rule sel "sel"; filter _u, v  condition "not 1 of them" *)
Definition wus_rule := mk_rule [(n_sel, 0)] n_sel.
Definition wus_filter := mk_filter [([95;117], 1); ([118], 2)] [110;111;116;32;49;32;111;102;32;116;104;101;109].
Theorem underscore_filter_name_refuted :
  exists draws f r r' rest, should_apply f r = true /\ apply_on_rule draws f r = Some (r', rest) /\ ~ narrowed r f r'.
Proof.
  exists [draw_a], wus_filter, wus_rule. do 2 eexists. split; [reflexivity|]. split; [reflexivity|].
  eapply (not_narrowed_by_value _ _ _ _ _ (fun d => negb (d =? 2)) true true false); try reflexivity. discriminate.
Qed.

(* unbalanced rule condition "a) or (b": does not load alone, loads once a filter is applied
   (wus_filter is the one at hand; which filter it is does not matter) *)
Definition wub_rule := mk_rule [([97], 0); ([98], 1)] [97;41;32;111;114;32;40;98].
Theorem unbalanced_refuted :
  exists draws f r r' rest c c', should_apply f r = true /\ apply_on_rule draws f r = Some (r', rest) /\
    r_conds r = [c] /\ r_conds r' = [c'] /\
    (forall asgd, cond_value (r_dets r) c asgd = None) /\
    (forall asgd, exists z, cond_value (r_dets r') c' asgd = Some z).
Proof.
  exists [draw_a], wus_filter, wub_rule. do 4 eexists.
  split; [reflexivity|]. split; [reflexivity|]. split; [reflexivity|]. split; [reflexivity|]. split.
  - intros asgd. reflexivity.
  - intros asgd. eexists. vm_compute. reflexivity.
Qed.

(* the premises are inhabited, with overlapping names on both sides *)
Definition ex_rule : rule :=     (* sel, flt ;  " sel or 1 of fl*" *)
  mk_rule [(n_sel, 0); (n_flt, 1)] (render [TW n_sel; TW w_or; TW w_1; TW w_of; TW [102;108;42]]).
Definition ex_filter : sfilter := (* flt, sel ;  " not 1 of them" *)
  mk_filter [(n_flt, 2); (n_sel, 3)] (render [TW w_not; TW w_1; TW w_of; TW w_them]).
Definition ex_e : expr := EOr (EId n_sel) (ESel Q1 [102;108;42]).
Definition ex_ef : expr := ENot (ESel Q1 w_them).

Lemma ex_reads_rule : reads (r_dets ex_rule) (render [TW n_sel; TW w_or; TW w_1; TW w_of; TW [102;108;42]]) ex_e.
Proof.
  split; [|repeat split; reflexivity].
  eexists. split; [apply render_lay; repeat constructor; discriminate|].
  apply (sp_or [TW n_sel] [TW w_1; TW w_of; TW [102;108;42]]).
  - apply (sp_up 2), (sp_up 1), (sp_up 0), sp_id.
  - apply (sp_up 1), (sp_up 0). apply (sp_sel Q1).
Qed.

Lemma ex_reads_filter : reads (f_dets ex_filter) (f_cond ex_filter) ex_ef.
Proof.
  split; [|repeat split; reflexivity].
  eexists. split; [apply render_lay; repeat constructor; discriminate|].
  apply (sp_up 2), (sp_up 1). apply (sp_not [TW w_1; TW w_of; TW w_them]). apply (sp_up 0). apply (sp_sel Q1).
Qed.

Theorem premises_inhabited :
  should_apply ex_filter ex_rule = true /\
  Forall (fun d => lower_draw d = true) [draw_a] /\
  NoDup (names (f_dets ex_filter)) /\
  reads (f_dets ex_filter) (f_cond ex_filter) ex_ef /\ plain ex_ef = true /\
  (forall n, In n (names (f_dets ex_filter)) -> us n = false) /\
  Forall (fun c => exists e, reads (r_dets ex_rule) c e /\ no_us_patterns e = true) (r_conds ex_rule) /\
  exists r' rest, apply_on_rule [draw_a] ex_filter ex_rule = Some (r', rest).
Proof.
  split; [reflexivity|]. split; [repeat constructor|]. split.
  { repeat constructor; simpl; intuition discriminate. }
  split; [exact ex_reads_filter|]. split; [reflexivity|]. split.
  { intros n [<-|[<-|[]]]; reflexivity. }
  split.
  { constructor; [|constructor]. exists ex_e. split; [exact ex_reads_rule|reflexivity]. }
  eexists _, _. reflexivity.
Qed.
