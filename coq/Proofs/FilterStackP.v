(* C11 - stacked filters: SigmaCollection.apply_filters folds apply_on_rule over all filters.
   The conditions left by an earlier filter contain patterns that begin with '_filt_<earlier prefix>_';
   they cannot select the detections a later filter adds, because the re-draw loop makes the later
   prefix different from every prefix in use. filter_ok, rule_ok, draws_ok and stacked are the words of
   C11_collection_partial (Props/C11.v). *)
From Coq Require Import NArith List Bool.
From PS Require Import Base.Chars Spec.FCondGrammar Model.Filter Spec.FilterSpec Proofs.CharsP Proofs.FilterP.
Import ListNotations.
Open Scope N_scope.

Definition filter_ok (f : sfilter) : Prop :=
  NoDup (names (f_dets f)) /\
  (exists ef, reads (f_dets f) (f_cond f) ef /\ plain ef = true) /\
  (forall n, In n (names (f_dets f)) -> us n = false).

(* the state a rule is in while filters are being applied: its conditions are clean for every prefix
   of length L that can still be drawn, whatever the detections of the next filter are called *)
Definition clean_conds (L : nat) (r : rule) : Prop :=
  Forall (fun c => exists e, reads (r_dets r) c e /\
            forall p nf, wf_prefix p = true -> length p = L -> fresh p (r_dets r) = true -> clean p nf e = true)
         (r_conds r).

Lemma clean_conds_step L p f r :
  wf_prefix p = true -> length p = L -> fresh p (r_dets r) = true -> filter_ok f -> clean_conds L r ->
  narrowed r f (apply_with p f r) /\ clean_conds L (apply_with p f r).
Proof.
  intros Hp HL Hf [Hnd [[ef [Hrf Hpl]] Hus]] Hst. split.
  { apply (meaning_with _ _ _ ef); try assumption. revert Hst. apply Forall_impl.
    intros c [e [Hr Hok]]. exists e. auto. }
  unfold clean_conds. rewrite apply_with_dets by assumption.
  unfold apply_with. cbn [r_conds with_detection]. apply Forall_map. revert Hst. apply Forall_impl.
  intros c [e [Hr Hok]]. exists (EAnd e (rename p ef)). split; [apply reads_new; assumption|].
  intros q nf Hq Lq Hfq.
  unfold fresh in Hfq. rewrite forallb_app in Hfq. apply andb_true_iff in Hfq. destruct Hfq as [Hfr Hfn].
  rewrite clean_and, Hok by assumption. apply (clean_rename p q (f_dets f)); [exact Hp | congruence | apply Hrf | exact Hfn].
Qed.

Lemma should_apply_stable f p f0 r : should_apply f (apply_with p f0 r) = should_apply f r.
Proof. reflexivity. Qed.

(* what the rule means after all filters: the value of its condition AND the values of the conditions of
   the filters that target it, in order *)
Definition stacked (r : rule) (fs : list sfilter) (r' : rule) : Prop :=
  Forall2 (fun c c' => forall asgd, exists x ys,
             cond_value (r_dets r) c asgd = Some x /\
             Forall2 (fun f y => cond_value (f_dets f) (f_cond f) asgd = Some y) (filter (fun f => should_apply f r) fs) ys /\
             cond_value (r_dets r') c' asgd = Some (fold_left andb ys x))
          (r_conds r) (r_conds r').

Lemma stacked_nil (Q : expr -> Prop) r :
  Forall (fun c => exists e, reads (r_dets r) c e /\ Q e) (r_conds r) -> stacked r [] r.
Proof.
  unfold stacked. induction 1 as [|c l [e [Hr _]] _ IH]; constructor; [|exact IH].
  intros asgd. exists (sem (names (r_dets r)) (asg_of (r_dets r) asgd) e), [].
  split; [apply reads_value, Hr|]. split; [constructor | apply reads_value, Hr].
Qed.

Lemma stacked_cons r f r1 fs r' :
  should_apply f r = true -> (forall g, should_apply g r1 = should_apply g r) ->
  narrowed r f r1 -> stacked r1 fs r' -> stacked r (f :: fs) r'.
Proof.
  intros A Hs N S. unfold stacked in *. simpl. rewrite A.
  rewrite (filter_ext _ _ Hs) in S. revert N S. apply Forall2_compose.
  intros a b c Hab Hbc asgd. destruct (Hab asgd) as [x [y [E1 [E2 E3]]]].
  destruct (Hbc asgd) as [xb [ys [F1 [F2 F3]]]]. rewrite E3 in F1. injection F1 as <-.
  exists x, (y :: ys). split; [exact E1|]. split; [constructor; assumption | exact F3].
Qed.

Lemma stacked_skip r f fs r' : should_apply f r = false -> stacked r fs r' -> stacked r (f :: fs) r'.
Proof. intros A S. unfold stacked. simpl. rewrite A. exact S. Qed.

(* one length for all draws, as random.choices(ascii_lowercase, k=10) gives: with it a pattern left under an
   earlier prefix p selects a name under a later prefix q only if q = p (prefixb_same_len in clean_rename) *)
Definition draws_ok (L : nat) (draws : list str) : Prop :=
  Forall (fun d => lower_draw d = true /\ length (prefix_of d) = L) draws.

Lemma apply_all_suffix (P : str -> Prop) fs : forall draws r r' rest,
  Forall P draws -> apply_all draws fs r = Some (r', rest) -> Forall P rest.
Proof.
  induction fs as [|f fs IH]; intros draws r r' rest HF H; simpl in H.
  - injection H as _ <-. exact HF.
  - destruct (apply_on_rule draws f r) as [[r1 rest1]|] eqn:E; [|discriminate].
    apply (apply_on_rule_inv P _ _ _ _ _ HF) in E. exact (IH _ _ _ _ (proj1 E) H).
Qed.

Lemma stack_gen L : forall fs draws r r' rest,
  draws_ok L draws ->
  Forall (fun f => should_apply f r = true -> filter_ok f) fs ->
  clean_conds L r ->
  apply_all draws fs r = Some (r', rest) ->
  stacked r fs r'.
Proof.
  induction fs as [|f fs IH]; intros draws r r' rest Hd Hfs Hst H; simpl in H.
  - injection H as <- _. exact (stacked_nil _ r Hst).
  - destruct (apply_on_rule draws f r) as [[r1 rest1]|] eqn:E; [|discriminate].
    apply (apply_on_rule_inv _ _ _ _ _ _ Hd) in E. destruct E as [Hd1 E].
    apply Forall_cons_iff in Hfs. destruct Hfs as [Hf Hfs].
    specialize (IH rest1 r1 r' rest Hd1). destruct (should_apply f r) eqn:A.
    + destruct E as [x [[Hlow HL] [Hfr ->]]].
      destruct (clean_conds_step L _ f r (wf_prefix_of x Hlow) HL Hfr (Hf eq_refl) Hst) as [N Hst1].
      apply (stacked_cons _ _ (apply_with (prefix_of x) f r)); [exact A | intros g; apply should_apply_stable | exact N |].
      (* Hfs serves for the narrowed rule as it stands: should_apply_stable holds by computation *)
      exact (IH Hfs Hst1 H).
    + subst r1. apply stacked_skip; [exact A | exact (IH Hfs Hst H)].
Qed.

Definition rule_ok (r : rule) : Prop :=
  Forall (fun c => exists e, reads (r_dets r) c e /\ no_us_patterns e = true) (r_conds r).

Lemma rule_ok_clean_conds L r : rule_ok r -> clean_conds L r.
Proof.
  apply Forall_impl. intros c [e [Hr Hn]]. exists e. split; [exact Hr|].
  intros p nf Hp _ _. apply wf_prefix_spec in Hp. apply clean_no_us; [apply Hp | exact Hn].
Qed.

(* SigmaCollection.apply_filters: every rule of the collection, all filters, one shared stream of draws *)
Theorem collection_main L fs : forall rs draws rs' rest,
  draws_ok L draws ->
  Forall (fun r => rule_ok r /\ Forall (fun f => should_apply f r = true -> filter_ok f) fs) rs ->
  apply_filters draws fs rs = Some (rs', rest) ->
  Forall2 (fun r r' => stacked r fs r') rs rs'.
Proof.
  induction rs as [|r rs IH]; intros draws rs' rest Hd Hr H; simpl in H.
  - injection H as <- _. constructor.
  - destruct (apply_all draws fs r) as [[r' rest0]|] eqn:A; [|discriminate].
    destruct (apply_filters rest0 fs rs) as [[out rest1]|] eqn:B; [|discriminate].
    injection H as <- _. inversion_clear Hr as [|? ? [Hok Hfs] Hr'].
    constructor; [exact (stack_gen L _ _ _ _ _ Hd Hfs (rule_ok_clean_conds L r Hok) A)|].
    exact (IH _ _ _ (apply_all_suffix _ _ _ _ _ _ Hd A) Hr' B).
Qed.

Theorem collection_untouched fs : forall draws r,
  Forall (fun f => should_apply f r = false) fs -> apply_all draws fs r = Some (r, draws).
Proof.
  induction fs as [|f fs IH]; intros draws r H; simpl; [reflexivity|].
  inversion H; subst. rewrite untouched by assumption. apply IH. assumption.
Qed.

Lemma correlation_never r f : r_kind r = KCorrelation -> should_apply f r = false.
Proof. intros H. unfold should_apply. rewrite H. reflexivity. Qed.
