(* The fuel of the entry point tparse always suffices (theorem tparse_complete): whenever the parser succeeds
   with some fuel it succeeds with  level + 1 + 4 * (tokens consumed)  (BackendP.enough_fuel). *)
From Coq Require Import List Lia.
From PS Require Import Model.Backend Spec.Target Proofs.BackendP Proofs.BackendDomP.
Import ListNotations.
Open Scope nat_scope.

Section F.
Variable K : cfg.
Variable asg : nat -> bool.
Notation pe := (pe (lvl K) asg).
Notation loop := (loop (lvl K) asg).

Definition need (i : nat) (ts r : list tok) : nat := i + 1 + 4 * (length ts - length r).
Definition needl (k : nat) (r r' : list tok) : nat := k + 2 + 4 * (length r - length r').

Lemma bound : forall f,
  (forall i ts v r, pe f i ts = Some (v, r) -> length r < length ts /\ pe (need i ts r) i ts = Some (v, r)) /\
  (forall o k v r v' r', loop f o k v r = Some (v', r') -> length r' <= length r /\ loop (needl k r r') o k v r = Some (v', r')).
Proof.
  intros f. destruct (enough_fuel K asg f) as [Hp Hl]. unfold need, needl. split; intros.
  - destruct (Hp _ _ _ _ H) as [L E]. split; [exact L | apply E; lia].
  - destruct (Hl _ _ _ _ _ _ H) as [L E]. split; [exact L | apply E; lia].
Qed.

Theorem tparse_complete f ts v : pe f 3 ts = Some (v, []) -> tparse (lvl K) asg ts = Some v.
Proof.
  intros H. unfold tparse. rewrite (pe_fuel K asg f _ _ _ _ _ H); [reflexivity|]. cbn [length]. lia.
Qed.
End F.

Theorem structure_tparse K asg c : cfg_ok K = true -> wfb K c = true ->
  tparse (lvl K) asg (conv K false c) = Some (den asg c).
Proof. intros HK Hw. destruct (structure_b K asg c HK Hw) as [f Hf]. exact (tparse_complete K asg f _ _ Hf). Qed.
