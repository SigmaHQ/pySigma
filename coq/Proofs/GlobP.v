(* C02 - the regular-expression matcher of the model decides the declarative glob relation, and selector
   resolution built on it selects the names the specification says (the underscore rule included). *)
From Coq Require Import NArith List Bool.
From PS Require Import Base.Chars Model.CondParse Model.Cond Spec.Glob Spec.CondGrammar Proofs.CharsP.
Import ListNotations.
Open Scope N_scope.

Theorem globb_Glob p n : globb p n = true <-> Glob p n.
Proof.
  revert n. induction p as [|c p IH]; intros n; simpl.
  - destruct n; split; intros H; try constructor; try discriminate. inversion H.
  - destruct (c =? c_star) eqn:Ec.
    + apply N.eqb_eq in Ec. subst c. rewrite some_suffix_spec. split.
      * intros (m & n' & -> & H). apply glob_star. apply IH. exact H.
      * intros H. inversion H; subst.
        -- congruence.
        -- eexists _, _. split; [reflexivity|]. apply IH. assumption.
    + apply N.eqb_neq in Ec. destruct n as [|x n].
      * split; [discriminate|]. intros H. inversion H; subst. congruence.
      * rewrite andb_true_iff, N.eqb_eq, IH. split.
        -- intros [-> H]. apply glob_lit; assumption.
        -- intros H. inversion H; subst; [auto | congruence].
Qed.

Lemma star_any_ext f g n : (forall x, f x = g x) -> star_any f n = star_any g n.
Proof. intros H. induction n; simpl; rewrite ?H; congruence. Qed.

Lemma rmatch_compile p n : rmatch (compile p) n = globb p n.
Proof.
  revert n. induction p as [|c p IH]; intros n; simpl.
  - reflexivity.
  - destruct (c =? c_star); simpl.
    + apply star_any_ext, IH.
    + destruct n; [reflexivity|]. rewrite IH. reflexivity.
Qed.

Theorem rmatch_Glob p n : rmatch (compile p) n = true <-> Glob p n.
Proof. rewrite rmatch_compile. apply globb_Glob. Qed.

Lemma sel_regex_selected p n :
  (rmatch (sel_regex p) n && (starts_us p || negb (starts_us n))) = selected p n.
Proof.
  unfold sel_regex, selected. change starts_us with us. f_equal.
  destruct (str_eqb p w_them); [apply some_suffix_end; reflexivity | apply rmatch_compile].
Qed.

Theorem resolve_sel_names dets p : resolve dets p = sel_names dets p.
Proof.
  apply filter_ext. intros n. apply sel_regex_selected.
Qed.

Theorem selected_spec p n :
  selected p n = true <->
  (p = w_them \/ Glob p n) /\ (us p = true \/ us n = false).
Proof.
  unfold selected. rewrite andb_true_iff, !orb_true_iff, str_eqb_eq, globb_Glob, negb_true_iff.
  reflexivity.
Qed.

Theorem sel_names_spec dets p n :
  In n (sel_names dets p) <-> In n dets /\ (p = w_them \/ Glob p n) /\ (us p = true \/ us n = false).
Proof. unfold sel_names. rewrite filter_In, selected_spec. reflexivity. Qed.

Theorem selector_spec dets p :
  resolve dets p = filter (selected p) dets /\
  forall n, In n (resolve dets p) <->
            In n dets /\ (p = w_them \/ Glob p n) /\ (us p = true \/ us n = false).
Proof.
  split; [exact (resolve_sel_names dets p)|].
  intros n. rewrite resolve_sel_names. exact (sel_names_spec dets p n).
Qed.
