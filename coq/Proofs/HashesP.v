(* C12, hashes_fields: grouping by dict insertion (first-insertion order, values appended) is the
   specification's grouping (fields in order of first occurrence, each with all its values): the closed form
   of a table filled by appending under a key (group_closed of CharsP), the specification writing the order of
   first occurrence in its own way. *)
From Coq Require Import NArith List Bool.
From PS Require Import Base.Chars Model.Transform Spec.Rewrite Proofs.CharsP.
Import ListNotations.
Open Scope N_scope.

Lemma mem_str_filter k x l : str_eqb k x = false ->
  mem_str k (filter (fun y => negb (str_eqb y x)) l) = mem_str k l.
Proof.
  intros H. unfold mem_str. induction l as [|y l IH]; [reflexivity|]. cbn [filter existsb].
  destruct (str_eqb y x) eqn:E; cbn [negb existsb]; rewrite IH; [|reflexivity].
  apply str_eqb_eq in E. subst y. rewrite H. reflexivity.
Qed.
Lemma mem_nodup_str k l : mem_str k (nodup_str l) = mem_str k l.
Proof.
  induction l as [|x l IH]; [reflexivity|]. cbn [nodup_str]. unfold mem_str in *. cbn [existsb].
  destruct (str_eqb k x) eqn:E; [reflexivity|]. rewrite <- IH. apply mem_str_filter, E.
Qed.
Lemma nodup_snoc l k : nodup_str (l ++ [k]) = nodup_str l ++ (if mem_str k l then [] else [k]).
Proof.
  induction l as [|x l IH]; [reflexivity|]. cbn [app nodup_str]. rewrite IH, filter_app. do 2 f_equal.
  unfold mem_str. cbn [existsb]. destruct (existsb (str_eqb k) l); [rewrite orb_true_r; reflexivity|].
  cbn [filter]. rewrite orb_false_r. destruct (str_eqb k x); reflexivity.
Qed.

Lemma nodup_str_adds l : nodup_str l = fold_left (add_new str_eqb) l [].
Proof.
  induction l as [|k l IH] using rev_ind; [reflexivity|].
  rewrite nodup_snoc, fold_left_app, <- IH. cbn [fold_left]. unfold add_new. fold (mem_str k (nodup_str l)).
  rewrite mem_nodup_str. destruct (mem_str k l); [apply app_nil_r | reflexivity].
Qed.

Lemma dict_add_aupd k v d : dict_add k v d = aupd [] (fun vs => vs ++ [v]) k d.
Proof. induction d as [|[k' vs] d IH]; simpl; [|rewrite IH]; reflexivity. Qed.

Theorem dict_group_spec pairs : dict_group pairs = spec_group pairs.
Proof.
  unfold spec_group. rewrite nodup_str_adds.
  apply (group_closed (fun d p => dict_add (fst p) (snd p) d)). intros d p. apply dict_add_aupd.
Qed.
