(* C15 - proofs: every reachable world satisfies one invariant, `good`; under it, a conversion whose pipeline items
   all point to the backend's own pipeline object refines the history-free specification of Spec/Frame.v.
   A stage of a conversion is described by a postcondition on the pair it returns (`ends`); stages that read owner
   links have two descriptions, one for the world alone (`lands (evolves E w0)`) and one as a forward simulation
   against the stage of the specification (`in_step`). *)
From Coq Require Import NArith List Bool Arith Lia.
From PS Require Import Base.Chars Base.Outcome Model.History Spec.Frame Proofs.CharsP.
Import ListNotations.
Open Scope N_scope.

Definition tpl_orig (tp : N -> tpls) : Prop := forall c, tp c = tpl0.
Definition cache_sound (E : env) (c : list (str * ptree)) : Prop :=
  forall k t, lookup k c = Some t -> e_parse E k = Some t.
Definition vc_sound (E : env) (vc : iid -> option (list str)) : Prop :=
  forall i it d v, vc i = Some v -> valid_pair E i it -> i_tr it = TFile d -> e_src E d = Ok v.
Definition nest0 (n : iid -> list (str * str) * list str) : Prop := forall i, n i = ([], []).
(* the part a conversion writes to: it restores the templates and the nested pipelines, and only adds to the caches *)
Definition sound (E : env) (w : world) : Prop :=
  tpl_orig (w_tpl w) /\ cache_sound E (w_cache w) /\ vc_sound E (w_vc w) /\ nest0 (w_nest w).

(* L < w_next: a later `init_pipeline` writes at w_next and so leaves the vars of L alone *)
Definition pvars_init (E : env) (w : world) : Prop :=
  forall b bk L f, nth_error (w_bks w) b = Some bk -> b_last bk = Some (L, f) ->
    (L < w_next w)%nat /\ w_pvars w L = init_vars E (b_cls bk) (b_user bk) (b_opts bk) f.
Definition hints_own (w : world) : Prop := forall e, In e (w_hints w) -> snd e = fst e.
Definition good (E : env) (w : world) : Prop := sound E w /\ pvars_init E w /\ hints_own w.

(* the part no conversion writes to *)
Definition same_frame (w w' : world) : Prop :=
  w_owner w' = w_owner w /\ w_bks w' = w_bks w /\ w_next w' = w_next w /\ w_pvars w' = w_pvars w
  /\ w_hints w' = w_hints w.
(* what every stage of a conversion does to the world, whatever the owner links are; the per-rule
   fields and the cache counters are free *)
Definition evolves (E : env) (w w' : world) : Prop := same_frame w w' /\ (sound E w -> sound E w').

Lemma evolves_refl E w : evolves E w w.
Proof. split; [repeat split | exact (fun H => H)]. Qed.
Lemma evolves_trans E a b c : evolves E a b -> evolves E b c -> evolves E a c.
Proof.
  intros [(A1 & A2 & A3 & A4 & A5) S1] [(B1 & B2 & B3 & B4 & B5) S2].
  split; [repeat split; congruence | exact (fun H => S2 (S1 H))].
Qed.
Lemma evolves_owner E w w' : evolves E w w' -> w_owner w' = w_owner w.
Proof. intros H. apply H. Qed.
Lemma evolves_bks E w w' : evolves E w w' -> w_bks w' = w_bks w.
Proof. intros H. apply H. Qed.
Lemma evolves_pvars E w w' : evolves E w w' -> w_pvars w' = w_pvars w.
Proof. intros H. apply H. Qed.
Lemma evolves_good E w w' : evolves E w w' -> good E w -> good E w'.
Proof.
  intros [(_ & Kb & Kn & Kp & Kh) S] (Hs & Hl & Hh). split; [exact (S Hs)|]. split.
  - intros b bk L f. rewrite Kb, Kn, Kp. apply Hl.
  - unfold hints_own. rewrite Kh. exact Hh.
Qed.

Lemma set_ps_evolves E w p v : evolves E w (set_ps w p v).
Proof. split; [repeat split | exact (fun H => H)]. Qed.
Lemma wr_owner_evolves E w o f : evolves E w (wr_owner w o f).
Proof. destruct o; [apply set_ps_evolves | apply evolves_refl]. Qed.
Lemma wr_owner_vc w o f : w_vc (wr_owner w o f) = w_vc w.
Proof. destruct o; reflexivity. Qed.
Lemma wr_owner_nest w o f : w_nest (wr_owner w o f) = w_nest w.
Proof. destruct o; reflexivity. Qed.
Lemma set_ps_same w p v : w_ps (set_ps w p v) p = v.
Proof. simpl. rewrite Nat.eqb_refl. reflexivity. Qed.

Definition ends {S A} (Q : S -> A -> Prop) (x : S * A) : Prop := Q (fst x) (snd x).
(* the conclusion is literally the model's `let '(s, a) := x in ..`: `eapply ends_let` unifies against the unfolded stage *)
Lemma ends_let {S A T B} (Q : S -> A -> Prop) (R : T -> B -> Prop) x (f : S -> A -> T * B) :
  ends Q x -> (forall s a, Q s a -> ends R (f s a)) -> ends R (let '(s, a) := x in f s a).
Proof. destruct x as [s a]. exact (fun H K => K s a H). Qed.
Definition lands {A} (P : world -> Prop) (x : world * A) : Prop := ends (fun w _ => P w) x.

Section CtreeInd.
  Variable P : ctree -> Prop.
  Hypothesis Hl : forall d, P (CLeaf d).
  Hypothesis Hn : forall c, P c -> P (CNot c).
  Hypothesis Ha : forall l, Forall P l -> P (CAnd l).
  Hypothesis Ho : forall l, Forall P l -> P (COr l).
  Fixpoint ctree_ind' (c : ctree) : P c :=
    match c with
    | CLeaf d => Hl d
    | CNot a => Hn a (ctree_ind' a)
    | CAnd l => Ha l ((fix go (l : list ctree) : Forall P l :=
                         match l with [] => Forall_nil P | a :: r => Forall_cons a (ctree_ind' a) (go r) end) l)
    | COr l => Ho l ((fix go (l : list ctree) : Forall P l :=
                        match l with [] => Forall_nil P | a :: r => Forall_cons a (ctree_ind' a) (go r) end) l)
    end.
End CtreeInd.

Definition renders {A} (f : (N -> tpls) -> (N -> tpls) * outcome A) (g : outcome A) : Prop :=
  forall tp, tpl_orig tp -> ends (fun tp' r => tpl_orig tp' /\ r = g) (f tp).

Lemma renders_bind {A B} f g (k : A -> B) : renders f g ->
  renders (fun tp => let '(tp1, r) := f tp in (tp1, obind r (fun s => Ok (k s)))) (obind g (fun s => Ok (k s))).
Proof. intros H tp Htp. eapply ends_let; [exact (H tp Htp)|]. intros tp1 r [H1 ->]. exact (conj H1 eq_refl). Qed.

Lemma render_leaf_ideal ne cls neg d : renders (render_leaf ne cls neg d) (ideal_leaf ne neg d).
Proof.
  intros tp H. unfold render_leaf, ideal_leaf, set_tpl, ends. destruct (neg && ne); simpl.
  - rewrite N.eqb_refl. split; [|reflexivity]. intros c. destruct (N.eqb c cls); apply H.
  - rewrite H. split; [exact H | reflexivity].
Qed.

Lemma render_args_ideal f g wrap l : Forall (fun a => renders (f a) (g a)) l ->
  renders (render_args f wrap l) (omap (fun a => obind (g a) (fun s => Ok (wrap a s))) l).
Proof.
  induction 1 as [|a l Ha _ IH]; intros tp Htp; simpl; [exact (conj Htp eq_refl)|].
  eapply ends_let; [exact (Ha tp Htp)|]. intros tp1 x [H1 ->].
  destruct (g a) as [s|e|e]; simpl; [|exact (conj H1 eq_refl) ..].
  eapply ends_let; [exact (IH tp1 H1)|]. intros tp2 y [H3 ->]. exact (conj H3 eq_refl).
Qed.

Lemma render_ideal ne cls : forall c neg, renders (render ne cls neg c) (ideal_render ne neg c).
Proof.
  induction c as [d|a IH|l IH|l IH] using ctree_ind'; intros neg.
  - apply render_leaf_ideal.
  - exact (renders_bind _ _ (not_text ne a) (IH true)).
  - refine (renders_bind _ _ (join s_and) (render_args_ideal (render ne cls neg) _ wrap_and l _)).
    eapply Forall_impl; [|exact IH]. intros a Ha. exact (Ha neg).
  - refine (renders_bind _ _ (join s_or) (render_args_ideal (render ne cls neg) _ wrap_or l _)).
    eapply Forall_impl; [|exact IH]. intros a Ha. exact (Ha neg).
Qed.

(* SigmaCondition.parse without the cache *)
Definition parse_of (E : env) (k : str) : outcome ptree :=
  if mem c_pipe k then SigmaErr E_Condition
  else match e_parse E k with Some t => Ok t | None => SigmaErr E_Condition end.
Lemma ideal_cond_parse E ne dets fin k :
  ideal_cond E ne dets fin k = obind (obind (obind (parse_of E k) (resolve dets)) (ideal_render ne false)) fin.
Proof. unfold ideal_cond, parse_of. destruct (mem c_pipe k); [reflexivity|]. destruct (e_parse E k); reflexivity. Qed.

Lemma set_cache_evolves E w c h m : (cache_sound E (w_cache w) -> cache_sound E c) -> evolves E w (set_cache w c h m).
Proof. intros H. split; [repeat split|]. intros (Ht & Hc & Hv & Hn). repeat split; auto. Qed.

Lemma cache_parse_spec E w k :
  ends (fun w' pt => evolves E w w' /\ w_ps w' = w_ps w /\ (sound E w -> pt = parse_of E k))
       (cache_parse E w k).
Proof.
  unfold cache_parse, parse_of. destruct (mem c_pipe k); [split; [apply evolves_refl | split; reflexivity]|].
  destruct (lookup k (w_cache w)) as [t|] eqn:El.
  - split; [apply set_cache_evolves; auto | split; [reflexivity|]]. intros (_ & Hc & _). rewrite (Hc k t El). reflexivity.
  - destruct (e_parse E k) as [t|] eqn:Ep; (split; [apply set_cache_evolves; auto | split; reflexivity]).
    intros Hc k' t'. simpl. destruct (str_eqb k' k) eqn:Ek; [|apply Hc].
    apply str_eqb_eq in Ek. subst k'. intros [= <-]. exact Ep.
Qed.

Lemma set_tplw_evolves E w tp : (tpl_orig (w_tpl w) -> tpl_orig tp) -> evolves E w (set_tplw w tp).
Proof. intros H. split; [repeat split|]. intros (Ht & Hc & Hv & Hn). repeat split; auto. Qed.

Lemma render_spec E w ne cls neg ct :
  ends (fun tp q => evolves E w (set_tplw w tp) /\ (sound E w -> q = ideal_render ne neg ct))
       (render ne cls neg ct (w_tpl w)).
Proof.
  pose proof (render_ideal ne cls ct neg (w_tpl w)) as Hr.
  split; [apply set_tplw_evolves; intros Ht; exact (proj1 (Hr Ht)) | intros [Ht _]; exact (proj2 (Hr Ht))].
Qed.

(* The loop over the condition strings looks at no owner link, so one statement serves for the world and for the
   value.  The model's tests are destructed; in a sound world the specification's are the same, read backwards. *)
Lemma conv_conds_spec E cls dets fin : forall ks w,
  ends (fun w' qs => evolves E w w' /\ w_ps w' = w_ps w /\
          (sound E w -> qs = omap (ideal_cond E (e_ne E cls) dets fin) ks))
       (conv_conds E cls dets fin w ks).
Proof.
  induction ks as [|k ks IH]; intros w; simpl; [exact (conj (evolves_refl E w) (conj eq_refl (fun _ => eq_refl)))|].
  rewrite ideal_cond_parse.
  eapply ends_let; [apply cache_parse_spec|]. intros w1 pt (H1 & P1 & Hpt).
  destruct (obind pt (resolve dets)) as [ct|e|e] eqn:Ect.
  2, 3: split; [exact H1 | split; [exact P1|]]; intros S; rewrite <- (Hpt S), Ect; reflexivity.
  eapply ends_let; [apply (render_spec E w1)|]. intros tp q [H2 Hq].
  pose proof (evolves_trans E _ _ _ H1 H2) as T2.
  destruct (obind q fin) as [s|e|e] eqn:Eq.
  2, 3: split; [exact T2 | split; [exact P1|]]; intros S;
        rewrite <- (Hpt S), Ect; simpl; rewrite <- (Hq (proj2 H1 S)), Eq; reflexivity.
  eapply ends_let; [apply IH|]. intros w3 rest (H3 & P3 & Hr).
  split; [exact (evolves_trans E _ _ _ T2 H3) | split; [exact (eq_trans P3 P1)|]].
  intros S. rewrite <- (Hpt S), Ect. simpl. rewrite <- (Hq (proj2 H1 S)), Eq. simpl. rewrite (Hr (proj2 T2 S)). reflexivity.
Qed.

Lemma iid_eqb_eq a b : iid_eqb a b = true <-> a = b.
Proof.
  destruct a as [s n], b as [t m]. unfold iid_eqb. simpl. split.
  - intros H. apply andb_true_iff in H. destruct H as [H1 H2]. apply Nat.eqb_eq in H2. subst m. f_equal.
    destruct s, t; simpl in H1; try discriminate.
    + apply N.eqb_eq in H1. congruence.
    + apply andb_true_iff in H1. destruct H1 as [H1 H2]. apply N.eqb_eq in H1, H2. congruence.
    + apply N.eqb_eq in H1. congruence.
  - intros [= <- <-]. rewrite Nat.eqb_refl, andb_true_r. destruct s; simpl; rewrite ?N.eqb_refl; reflexivity.
Qed.

Lemma iid_mem_In i l : existsb (iid_eqb i) l = true <-> In i l.
Proof. exact (existsb_eqb_In iid_eqb i l iid_eqb_eq). Qed.

Lemma set_vc_evolves E w i v :
  (forall it d, valid_pair E i it -> i_tr it = TFile d -> e_src E d = Ok v) -> evolves E w (set_vc w i v).
Proof.
  intros H. split; [repeat split|]. intros (Ht & Hc & Hv & Hn). repeat split; try assumption.
  intros j jt d v' Hj. simpl in Hj. destruct (iid_eqb j i) eqn:Ej; [|exact (Hv j jt d v' Hj)].
  apply iid_eqb_eq in Ej. injection Hj as <-. subst j. apply H.
Qed.

(* stated on `item_step`, not on the values: an item that does not ask gets `Ok []` and does not look at it *)
Lemma fetch_vals_spec E w i it rd r : valid_pair E i it ->
  ends (fun w' vals => evolves E w w' /\ w_ps w' = w_ps w /\
          (sound E w -> forall pv, item_step rd pv r it vals = item_step rd pv r it (src_vals E it)))
       (fetch_vals E w i it rd r).
Proof.
  intros Hval. unfold fetch_vals, src_vals.
  destruct (i_tr it) as [| | |d| | | | | | |] eqn:Et; try (split; [apply evolves_refl | split; reflexivity]).
  destruct (wants_values rd r it) eqn:Ew.
  - unfold get_values. destruct (w_vc w i) as [v|] eqn:Ec.
    { split; [apply evolves_refl | split; [reflexivity|]]. intros (_ & _ & Hv & _) pv. rewrite (Hv i it d v Ec Hval Et). reflexivity. }
    destruct (e_src E d) as [v|e|e] eqn:Es; try (split; [apply evolves_refl | split; reflexivity]).
    split; [|split; reflexivity]. apply set_vc_evolves. intros it' d' Hval' Et'. unfold valid_pair in *. congruence.
  - split; [apply evolves_refl | split; [reflexivity|]]. intros _ pv.
    unfold wants_values in Ew. rewrite Et in Ew. unfold item_step. rewrite Et.
    destruct (eval_rcond rd r (i_cond it)); [|reflexivity]. simpl in Ew. rewrite Ew. reflexivity.
Qed.

Definition valid_pairs (E : env) (its : list (iid * item)) : Prop := Forall (fun p => valid_pair E (fst p) (snd p)) its.
Definition owned (w : world) (L : nat) (its : list (iid * item)) : Prop :=
  Forall (fun p => w_owner w (fst p) = Some L) its.

(* The loops are followed from a fixed world w0 that has evolved to the world they start in, so that the induction
   hypothesis is the conclusion for the rest of the list. *)
Lemma apply_items_evolves E w0 L : forall its w r, valid_pairs E its -> evolves E w0 w ->
  lands (evolves E w0) (apply_items E w L r its).
Proof.
  induction its as [|[i it] its IH]; intros w r Hval H; simpl; [exact H|].
  destruct (is_post it); [exact (IH w r (Forall_inv_tail Hval) H)|].
  eapply ends_let; [exact (fetch_vals_spec E w i it _ r (Forall_inv Hval))|]. intros w1 vals [H1 _].
  set (st := item_step _ _ r it vals).
  pose proof (evolves_trans E _ _ _ H (evolves_trans E _ _ _ H1 (wr_owner_evolves E w1 (w_owner w i) (is_upd st)))) as H2.
  destruct (is_res st) as [r'|e]; [|exact H2].
  exact (IH _ r' (Forall_inv_tail Hval) (evolves_trans E _ _ _ H2 (set_ps_evolves E _ L _))).
Qed.

Lemma tagp_map_snd s its : map snd (tagp s its) = its.
Proof.
  unfold tagp. generalize (seq 0 (List.length its)) (seq_length (List.length its) 0).
  intros l Hl. revert l Hl. induction its as [|x its IH]; intros [|k l] Hl; simpl in *; try discriminate; try reflexivity.
  f_equal. apply IH. lia.
Qed.
Lemma pipe_pairs_defs E cls user fmt : map snd (pipe_pairs E cls user fmt) = pipe_defs E cls user fmt.
Proof.
  unfold pipe_pairs, pipe_defs. rewrite !map_app, !tagp_map_snd.
  destruct user; simpl; [rewrite tagp_map_snd|]; reflexivity.
Qed.

(* `tagp s its` unfolded, with the start of `seq` generalised for the induction *)
Lemma tagp_valid (s : src) : forall (its : list item) (a : nat) (p : iid * item),
  In p (combine (map (fun k => (s, k)) (seq a (List.length its))) its) ->
  exists n, fst p = (s, (a + n)%nat) /\ nth_error its n = Some (snd p).
Proof.
  induction its as [|x its IH]; intros a p H; simpl in H; [destruct H|]. destruct H as [<-|H].
  - exists 0%nat. rewrite Nat.add_0_r. split; reflexivity.
  - destruct (IH (S a) p H) as (n & H1 & H2). exists (S n). rewrite Nat.add_succ_r. split; assumption.
Qed.
(* the pipeline definition that `valid_pair` looks into *)
Definition src_items (E : env) (s : src) : list item :=
  match s with SBk c => e_bk E c | SFmt c f => e_fmt E c f | SUser o => e_user E o end.
Lemma tagp_valid_pairs E s : valid_pairs E (tagp s (src_items E s)).
Proof.
  apply Forall_forall. intros p Hp. destruct (tagp_valid s _ 0%nat p Hp) as (n & H1 & H2).
  unfold valid_pair. rewrite H1. exact H2.
Qed.
Lemma pipe_pairs_valid E cls user fmt : valid_pairs E (pipe_pairs E cls user fmt).
Proof.
  unfold pipe_pairs. apply Forall_app. split; [apply (tagp_valid_pairs E (SBk cls))|]. apply Forall_app.
  split; [|apply (tagp_valid_pairs E (SFmt cls fmt))].
  destruct user as [o|]; [apply (tagp_valid_pairs E (SUser o)) | constructor].
Qed.

(* the `PNest` branch of `post_items`: the identifiers the nested pipeline applied go to the owner, and it is left as v *)
Lemma nest_evolves E w o f i v : (nest0 (w_nest w) -> v = ([], [])) -> evolves E w (set_nest (wr_owner w o f) i v).
Proof.
  intros H. apply (evolves_trans E _ _ _ (wr_owner_evolves E w o f)). split; [repeat split|].
  intros (Ht & Hc & Hv & Hn). repeat split; try assumption.
  intros j. simpl. destruct (iid_eqb j i); [|apply Hn]. rewrite wr_owner_nest in Hn. exact (H Hn).
Qed.

Lemma post_items_evolves E w0 L r : forall its w q, evolves E w0 w -> lands (evolves E w0) (post_items w L r q its).
Proof.
  induction its as [|[i it] its IH]; intros w q H; simpl; [exact H|].
  destruct (i_tr it) as [| | | | | | | | | |p]; try exact (IH w q H).
  destruct (eval_rcond (rd_owner w (w_owner w i)) r (i_cond it)); [|exact (IH w q H)].
  destruct p as [p0|l].
  - exact (IH _ _ (evolves_trans E _ _ _ H (set_ps_evolves E w L _))).
  - destruct (nest_run (fst (w_nest w i)) r q l (snd (w_nest w i))) as [q' nids].
    refine (IH _ _ (evolves_trans E _ _ _ H (evolves_trans E _ _ _ (nest_evolves E w _ _ i _ _) (set_ps_evolves E _ L _)))).
    intros Hn. rewrite (Hn i). reflexivity.
Qed.

Lemma post_all_evolves E w0 L r its : forall qs w, evolves E w0 w -> lands (evolves E w0) (post_all w L r qs its).
Proof.
  induction qs as [|q qs IH]; intros w H; simpl; [exact H|].
  eapply ends_let; [apply (post_items_evolves E w0 L r its w q H)|]. intros w1 q1 H1.
  eapply ends_let; [apply (IH w1 H1)|]. intros w2 l H2. exact H2.
Qed.

Lemma conv_with_evolves E w L lfmt bk fmt r : lands (evolves E w) (conv_with E w L lfmt bk fmt r).
Proof.
  unfold conv_with.
  eapply ends_let.
  { apply (apply_items_evolves E w L _ _ r (pipe_pairs_valid E (b_cls bk) (b_user bk) lfmt) (set_ps_evolves E w L ps0)). }
  intros w3 [r'|e] H3; [|exact H3].
  eapply ends_let; [apply conv_conds_spec|]. intros w4 qs [H34 _]. pose proof (evolves_trans E _ _ _ H3 H34) as H4.
  destruct qs as [l|e|e]; try exact H4.
  eapply ends_let; [apply (post_all_evolves E w L r' _ _ w4 H4)|]. intros w5 l' H5. exact H5.
Qed.

(* Forward simulation.  A conversion on pipeline object L starts in a sound world w0; the world w it has come to
   tracks the per-rule fields ps that the specification has come to. *)
Section Refinement.
  Variables (E : env) (w0 : world) (L : nat).
  Hypothesis S0 : sound E w0.

  Definition tracks (w : world) (ps : pstate) : Prop := evolves E w0 w /\ w_ps w L = ps.
  Definition in_step {A} (x : world * A) (y : pstate * A) : Prop := ends (fun w a => tracks w (fst y) /\ a = snd y) x.

  Lemma in_step_let {A B} x y (f : world -> A -> world * B) (g : pstate -> A -> pstate * B) :
    in_step x y -> (forall w ps a, tracks w ps -> in_step (f w a) (g ps a)) ->
    in_step (let '(w, a) := x in f w a) (let '(ps, a) := y in g ps a).
  Proof. destruct x as [w a], y as [ps a']. intros [T Ha] K. simpl in Ha. subst a'. exact (K w ps a T). Qed.

  Lemma tracks_sound w ps : tracks w ps -> sound E w.
  Proof. intros [[_ S] _]. exact (S S0). Qed.
  Lemma tracks_set_ps w v : evolves E w0 w -> tracks (set_ps w L v) v.
  Proof. intros H. split; [exact (evolves_trans E _ _ _ H (set_ps_evolves E w L v)) | apply set_ps_same]. Qed.
  Lemma tracks_on w w' ps : tracks w ps -> evolves E w w' -> w_ps w' = w_ps w -> tracks w' ps.
  Proof. intros [H <-] H1 P1. split; [exact (evolves_trans E _ _ _ H H1) | rewrite P1; reflexivity]. Qed.

  Lemma apply_items_ref : forall its w ps r, valid_pairs E its -> owned w0 L its -> tracks w ps ->
    in_step (apply_items E w L r its) (ideal_items E (w_pvars w0 L) ps r (map snd its)).
  Proof.
    induction its as [|[i it] its IH]; intros w ps r Hval Hown T; simpl; [exact (conj T eq_refl)|].
    destruct (is_post it); [exact (IH w ps r (Forall_inv_tail Hval) (Forall_inv_tail Hown) T)|].
    pose proof (tracks_sound w ps T) as S. destruct T as [H <-].
    rewrite (evolves_owner E _ _ H), (Forall_inv Hown : w_owner w0 i = Some L). simpl. rewrite (evolves_pvars E _ _ H).
    eapply ends_let; [exact (fetch_vals_spec E w i it _ r (Forall_inv Hval))|]. intros w1 vals (H1 & P1 & Hst).
    rewrite (Hst S). simpl. rewrite Nat.eqb_refl, P1.
    set (st := item_step (w_ps w L) (w_pvars w0 L) r it (src_vals E it)).
    pose proof (tracks_set_ps w1 (is_upd st (w_ps w L)) (evolves_trans E _ _ _ H H1)) as T2.
    destruct (is_res st) as [r'|e]; [|exact (conj T2 eq_refl)].
    exact (IH _ _ r' (Forall_inv_tail Hval) (Forall_inv_tail Hown) (tracks_set_ps _ _ (proj1 T2))).
  Qed.

  Lemma post_items_ref r : forall its w ps q, owned w0 L its -> tracks w ps ->
    in_step (post_items w L r q its) (ideal_post ps r q (map snd its)).
  Proof.
    induction its as [|[i it] its IH]; intros w ps q Hown T; simpl; [exact (conj T eq_refl)|].
    pose proof (IH w ps q (Forall_inv_tail Hown) T) as Skip.
    destruct (i_tr it) as [| | | | | | | | | |p]; try exact Skip.
    pose proof (tracks_sound w ps T) as (_ & _ & _ & Hn). destruct T as [H <-].
    rewrite (evolves_owner E _ _ H), (Forall_inv Hown : w_owner w0 i = Some L). simpl. destruct (eval_rcond (w_ps w L) r (i_cond it)); [|exact Skip].
    destruct p as [p0|l].
    - exact (IH _ _ _ (Forall_inv_tail Hown) (tracks_set_ps w _ H)).
    - rewrite (Hn i). simpl. destruct (nest_run [] r q l []) as [q' nids]. simpl. rewrite Nat.eqb_refl.
      exact (IH _ _ _ (Forall_inv_tail Hown)
               (tracks_set_ps _ _ (evolves_trans E _ _ _ H (nest_evolves E w (Some L) _ i _ (fun _ => eq_refl))))).
  Qed.

  Lemma post_all_ref r its : forall qs w ps, owned w0 L its -> tracks w ps ->
    in_step (post_all w L r qs its) (ideal_post_all ps r qs (map snd its)).
  Proof.
    induction qs as [|q qs IH]; intros w ps Hown T; simpl; [exact (conj T eq_refl)|].
    eapply in_step_let; [apply (post_items_ref r its w ps q Hown T)|]. intros w1 ps1 q1 T1.
    eapply in_step_let; [apply (IH w1 ps1 Hown T1)|]. intros w2 ps2 l T2. exact (conj T2 eq_refl).
  Qed.

  Lemma conv_with_ref w lfmt bk fmt r : evolves E w0 w ->
    owned w0 L (pipe_pairs E (b_cls bk) (b_user bk) lfmt) ->
    w_pvars w0 L = init_vars E (b_cls bk) (b_user bk) (b_opts bk) lfmt ->
    in_step (conv_with E w L lfmt bk fmt r) (ideal_rule E (b_cls bk) (b_user bk) (b_opts bk) lfmt fmt r).
  Proof.
    intros H Hown Hpv. unfold conv_with, ideal_rule. rewrite <- pipe_pairs_defs, <- Hpv.
    eapply in_step_let.
    { apply (apply_items_ref _ _ ps0 r (pipe_pairs_valid E (b_cls bk) (b_user bk) lfmt) Hown (tracks_set_ps w ps0 H)). }
    intros w3 ps3 [r'|e] T3; [|exact (conj T3 eq_refl)]. rewrite (proj2 T3).
    eapply ends_let; [apply conv_conds_spec|]. intros w4 qs (H4 & P4 & Hq).
    rewrite (Hq (tracks_sound w3 ps3 T3)). pose proof (tracks_on w3 w4 ps3 T3 H4 P4) as T4.
    destruct (omap _ (r_conds r')) as [l|e|e]; [|exact (conj T4 eq_refl) ..].
    eapply in_step_let; [apply (post_all_ref r' _ _ w4 ps3 Hown T4)|]. intros w5 ps5 l' T5. exact (conj T5 eq_refl).
  Qed.
End Refinement.

Lemma init_owned E w b bk fmt :
  owned (init_pipeline E w b bk fmt) (w_next w) (pipe_pairs E (b_cls bk) (b_user bk) fmt).
Proof.
  apply Forall_forall. intros p Hp. simpl.
  rewrite (proj2 (iid_mem_In (fst p) _) (in_map fst _ _ Hp)). reflexivity.
Qed.

Lemma init_pvars E w b bk fmt :
  w_pvars (init_pipeline E w b bk fmt) (w_next w) = init_vars E (b_cls bk) (b_user bk) (b_opts bk) fmt.
Proof. simpl. rewrite Nat.eqb_refl. reflexivity. Qed.

Lemma nth_error_set_nth {A} (l : list A) : forall n m x,
  nth_error (set_nth n x l) m = if Nat.eqb m n then option_map (fun _ => x) (nth_error l m) else nth_error l m.
Proof.
  induction l as [|a l IH]; intros [|n] [|m] x; simpl; try reflexivity; [destruct (Nat.eqb m n); reflexivity | apply IH].
Qed.
Lemma nth_error_snoc {A} (l : list A) x : forall n y, nth_error (l ++ [x]) n = Some y -> nth_error l n = Some y \/ y = x.
Proof.
  induction l as [|a l IH]; intros [|n] y H; simpl in *; auto; [right; congruence|].
  destruct n; discriminate.
Qed.

Lemma set_nth_map {A B} (g : A -> B) (l : list A) : forall n x y, nth_error l n = Some y -> g x = g y ->
  map g (set_nth n x l) = map g l.
Proof.
  induction l as [|a l IH]; intros [|n] x y H Hg; simpl in *; try discriminate; [injection H as ->; rewrite Hg; reflexivity|].
  f_equal. exact (IH n x y H Hg).
Qed.

Lemma init_bk E w b bk fmt : nth_error (w_bks w) b = Some bk ->
  nth_error (w_bks (init_pipeline E w b bk fmt)) b
  = Some {| b_cls := b_cls bk; b_user := b_user bk; b_collect := b_collect bk; b_opts := b_opts bk;
            b_last := Some (w_next w, fmt) |}.
Proof. intros Hb. simpl. rewrite nth_error_set_nth, Nat.eqb_refl, Hb. reflexivity. Qed.

Lemma init_good E w b bk fmt : good E w -> good E (init_pipeline E w b bk fmt).
Proof.
  intros (S & Hl & Hh). split; [exact S|]. split; [|exact Hh].
  intros b' bk' L f Hb Hla. simpl in Hb |- *. rewrite nth_error_set_nth in Hb.
  destruct (Nat.eqb b' b).
  - destruct (nth_error (w_bks w) b'); [|discriminate]. injection Hb as <-. injection Hla as <- <-.
    rewrite Nat.eqb_refl. split; [lia | reflexivity].
  - destruct (Hl b' bk' L f Hb Hla) as [A B]. split; [lia|].
    destruct (Nat.eqb_spec L (w_next w)); [lia | exact B].
Qed.

Lemma owns_ok_owned E w bk L f : b_last bk = Some (L, f) ->
  owns_ok E w bk = true <-> owned w L (pipe_pairs E (b_cls bk) (b_user bk) f).
Proof.
  intros Hl. unfold owns_ok, owned. rewrite Hl, forallb_forall, Forall_forall.
  split; intros H p Hp; specialize (H p Hp); destruct (w_owner w (fst p)); try discriminate.
  - apply Nat.eqb_eq in H. subst. reflexivity.
  - injection H as ->. apply Nat.eqb_refl.
Qed.

Lemma owns_ok_ext E w w' bk : w_owner w' = w_owner w -> owns_ok E w' bk = owns_ok E w bk.
Proof. intros H. unfold owns_ok. rewrite H. reflexivity. Qed.

Lemma snap_set w b bk L f : nth_error (w_bks w) b = Some bk -> b_last bk = Some (L, f) -> snap w b = Some (w_ps w L).
Proof. intros Hb Hl. unfold snap. rewrite Hb, Hl. reflexivity. Qed.

Lemma tracks_snap E w0 L w ps b bk f :
  tracks E w0 L w ps -> nth_error (w_bks w0) b = Some bk -> b_last bk = Some (L, f) -> snap w b = Some ps.
Proof.
  intros [H <-] Hb Hl. rewrite <- (evolves_bks E _ _ H) in Hb. exact (snap_set w b bk L f Hb Hl).
Qed.

Lemma load_hints_own w r : hints_own w -> hints_own (load w r).
Proof.
  unfold load, hints_own. simpl. generalize (w_hints w). induction (r_mods r) as [|mt l IH]; intros h Hh; simpl; [exact Hh|].
  apply IH. destruct (existsb (fun e => N.eqb (fst e) (fst mt)) h); [exact Hh|].
  intros e He. apply in_app_iff in He. destruct He as [He|[He|[]]]; [apply Hh; exact He | subst e; reflexivity].
Qed.
Lemma load_good E w r : good E w -> good E (load w r).
Proof. intros (S & Hl & Hh). split; [exact S|]. split; [exact Hl | apply load_hints_own; exact Hh]. Qed.

(* bk0 is the backend stored at b and bk the one `conv_with` is given, of which it reads the configuration only:
   right after `init_pipeline` the two differ in `b_last` *)
Lemma conv_with_ideal E w0 L w b bk0 bk fmt r :
  sound E w0 -> evolves E w0 w -> nth_error (w_bks w0) b = Some bk0 -> b_last bk0 = Some (L, fmt) ->
  owned w0 L (pipe_pairs E (b_cls bk) (b_user bk) fmt) ->
  w_pvars w0 L = init_vars E (b_cls bk) (b_user bk) (b_opts bk) fmt ->
  let y := ideal_rule E (b_cls bk) (b_user bk) (b_opts bk) fmt fmt r in
  ends (fun w1 q => tracks E w0 L w1 (fst y) /\ snap w1 b = Some (fst y) /\ q = snd y) (conv_with E w L fmt bk fmt r).
Proof.
  intros S0 H Hb Hl Hown Hpv y. destruct (conv_with_ref E w0 L S0 w fmt bk fmt r H Hown Hpv) as [T Hq].
  exact (conj T (conj (tracks_snap E w0 L _ _ b bk0 fmt T Hb Hl) Hq)).
Qed.

Theorem frame_rule E w b bk fmt r :
  sound E w -> pvars_init E w -> nth_error (w_bks w) b = Some bk -> owns_ok E w bk = true -> fmt_ok bk fmt = true ->
  out_obs (snd (step E w (OConvRule b r fmt))) =
  ideal_obs_rule E (b_cls bk) (b_user bk) (b_collect bk) (b_opts bk) fmt r.
Proof.
  intros S Hp Hb Hown Hfmt. simpl. rewrite Hb. unfold ideal_obs_rule.
  set (y := ideal_rule E (b_cls bk) (b_user bk) (b_opts bk) fmt fmt r).
  enough (K : ends (fun w1 q => snap w1 b = Some (fst y) /\ q = snd y) (conv_rule_raw E (load w r) b bk fmt r)).
  { destruct (conv_rule_raw E (load w r) b bk fmt r) as [w1 q], y as [ps q']. destruct K as [Hsn Hq]. simpl in Hsn, Hq |- *.
    rewrite Hsn, Hq. reflexivity. }
  (* `load` and `init_pipeline` write to none of the fields that `sound`, `owned` and the equation on `w_pvars w L`
     read: S, Hown and Hp are passed for the worlds after them by conversion *)
  unfold conv_rule_raw. destruct (b_last bk) as [[L f]|] eqn:El.
  - unfold fmt_ok in Hfmt. rewrite El in Hfmt. apply N.eqb_eq in Hfmt. subst f.
    exact (proj2 (conv_with_ideal E (load w r) L _ b bk bk fmt r S (evolves_refl E _) Hb El
                    (proj1 (owns_ok_owned E w bk L fmt El) Hown) (proj2 (Hp b bk L fmt Hb El)))).
  - exact (proj2 (conv_with_ideal E (init_pipeline E (load w r) b bk fmt) (w_next (load w r)) _ b _ bk fmt r S
                    (evolves_refl E _) (init_bk E (load w r) b bk fmt Hb) eq_refl
                    (init_owned E (load w r) b bk fmt) (init_pvars E (load w r) b bk fmt))).
Qed.

(* convert(): every rule of the collection starts in a world that the one after `init_pipeline` has evolved to *)
Lemma conv_rules_ideal E w0 b bk L fmt collect :
  sound E w0 -> nth_error (w_bks w0) b = Some bk -> b_last bk = Some (L, fmt) ->
  owned w0 L (pipe_pairs E (b_cls bk) (b_user bk) fmt) ->
  w_pvars w0 L = init_vars E (b_cls bk) (b_user bk) (b_opts bk) fmt ->
  forall rs w acc errs, evolves E w0 w ->
  let '(w', q, errs') := conv_rules E w b fmt collect rs acc errs in
  {| o_res := q; o_errs := errs'; o_snap := snap w' b |}
  = ideal_rules E (b_cls bk) (b_user bk) collect (b_opts bk) fmt rs acc errs (w_ps w L).
Proof.
  intros S0 Hb Hl Hown Hpv. induction rs as [|r rs IH]; intros w acc errs H; simpl.
  - rewrite (tracks_snap E w0 L w _ b bk fmt (conj H eq_refl) Hb Hl). reflexivity.
  - rewrite (evolves_bks E _ _ H), Hb. unfold conv_rule_raw. rewrite Hl.
    pose proof (conv_with_ideal E w0 L w b bk bk fmt r S0 H Hb Hl Hown Hpv) as K.
    destruct (conv_with E w L fmt bk fmt r) as [w1 q], (ideal_rule E (b_cls bk) (b_user bk) (b_opts bk) fmt fmt r) as [ps q'].
    destruct K as ([H1 Hps] & Hsn & Hq). simpl in H1, Hps, Hsn, Hq. subst q' ps.
    destruct q as [l|e|e]; [exact (IH w1 _ _ H1) | destruct collect; [exact (IH w1 _ _ H1)|] |]; rewrite Hsn; reflexivity.
Qed.

Lemma fold_load_bks rs : forall w, w_bks (fold_left load rs w) = w_bks w.
Proof. induction rs as [|r rs IH]; intros w; simpl; [reflexivity | exact (IH (load w r))]. Qed.

(* `ONew` is excluded: creating a backend is none of the three kinds of step that `Section Keeps` assumes *)
Definition uses (F : N -> Prop) (o : op) : Prop :=
  match o with
  | OLoad _ => True
  | ONew _ _ _ _ => False
  | OInit _ f | OConvColl _ _ f | OConvRule _ _ f => F f
  end.

Section Keeps.
  Variables (E : env) (F : N -> Prop) (P : world -> Prop).
  Hypothesis P_evolves : forall w w', evolves E w w' -> P w -> P w'.
  Hypothesis P_load : forall w r, P w -> P (load w r).
  Hypothesis P_init : forall w b bk f, F f -> nth_error (w_bks w) b = Some bk -> P w -> P (init_pipeline E w b bk f).

  Lemma fold_load_keeps rs : forall w, P w -> P (fold_left load rs w).
  Proof. induction rs as [|r rs IH]; intros w H; simpl; [exact H | apply IH, P_load, H]. Qed.

  Lemma conv_rule_raw_keeps w b bk fmt r :
    F fmt -> nth_error (w_bks w) b = Some bk -> P w -> P (fst (conv_rule_raw E w b bk fmt r)).
  Proof.
    intros Hf Hb H. unfold conv_rule_raw. destruct (b_last bk) as [[L f]|].
    - exact (P_evolves _ _ (conv_with_evolves E w L f bk fmt r) H).
    - exact (P_evolves _ _ (conv_with_evolves E _ (w_next w) fmt bk fmt r) (P_init w b bk fmt Hf Hb H)).
  Qed.

  Lemma conv_rules_keeps b fmt collect : F fmt ->
    forall rs w acc errs, P w -> P (fst (fst (conv_rules E w b fmt collect rs acc errs))).
  Proof.
    intros Hf. induction rs as [|r rs IH]; intros w acc errs H; simpl; [exact H|].
    destruct (nth_error (w_bks w) b) as [bk|] eqn:Hb; [|exact H].
    pose proof (conv_rule_raw_keeps w b bk fmt r Hf Hb H) as H1. destruct (conv_rule_raw E w b bk fmt r) as [w1 q]. simpl in H1.
    destruct q as [l|e|e]; [apply IH; exact H1 | destruct collect; [apply IH; exact H1 | exact H1] | exact H1].
  Qed.

  Lemma step_keeps w o : uses F o -> P w -> P (fst (step E w o)).
  Proof.
    intros Hf H. destruct o as [r|cls user collect opts|b fmt|b rs fmt|b r fmt]; simpl in Hf |- *.
    - apply P_load, H.
    - destruct Hf.
    - destruct (nth_error (w_bks w) b) eqn:Hb; simpl; [apply P_init; assumption | exact H].
    - destruct (nth_error (w_bks w) b) as [bk|] eqn:Hb; simpl; [|exact H].
      rewrite <- (fold_load_bks rs w) in Hb.
      pose proof (conv_rules_keeps b fmt (b_collect bk) Hf rs _ [] [] (P_init _ b bk fmt Hf Hb (fold_load_keeps rs w H))) as K.
      destruct (conv_rules E (init_pipeline E (fold_left load rs w) b bk fmt) b fmt (b_collect bk) rs [] []) as [[w1 q] errs].
      exact K.
    - destruct (nth_error (w_bks w) b) as [bk|] eqn:Hb; simpl; [|exact H].
      pose proof (conv_rule_raw_keeps (load w r) b bk fmt r Hf Hb (P_load w r H)) as K.
      destruct (conv_rule_raw E (load w r) b bk fmt r) as [w1 q]. exact K.
  Qed.
End Keeps.

Theorem frame_coll E w b bk fmt rs :
  sound E w -> nth_error (w_bks w) b = Some bk ->
  out_obs (snd (step E w (OConvColl b rs fmt))) =
  ideal_obs_coll E (b_cls bk) (b_user bk) (b_collect bk) (b_opts bk) fmt rs.
Proof.
  intros S Hb. simpl. rewrite Hb. rewrite <- (fold_load_bks rs w) in Hb. set (wl := fold_left load rs w) in *.
  (* `load` and `init_pipeline` write to none of the fields `sound` reads *)
  pose proof (conv_rules_ideal E (init_pipeline E wl b bk fmt) b _ (w_next wl) fmt (b_collect bk)
                (fold_load_keeps (sound E) (fun _ _ H => H) rs w S) (init_bk E wl b bk fmt Hb) eq_refl
                (init_owned E wl b bk fmt) (init_pvars E wl b bk fmt) rs _ [] [] (evolves_refl E _)) as H.
  destruct (conv_rules E (init_pipeline E wl b bk fmt) b fmt (b_collect bk) rs [] []) as [[w1 q] errs]. simpl.
  rewrite H. unfold ideal_obs_coll. simpl. rewrite Nat.eqb_refl. reflexivity.
Qed.

Lemma step_good E w o : good E w -> good E (fst (step E w o)).
Proof.
  intros G. destruct o as [r|cls user collect opts|b fmt|b rs fmt|b r fmt].
  2: { destruct G as (S & Hl & Hh). split; [exact S|]. split; [|exact Hh].
       intros b bk L f Hb Hla. simpl in Hb. apply nth_error_snoc in Hb.
       destruct Hb as [Hb| ->]; [exact (Hl b bk L f Hb Hla) | discriminate]. }
  all: apply (step_keeps E (fun _ => True) (good E) (evolves_good E) (load_good E) (fun w b bk f _ _ => init_good E w b bk f));
    [exact I | exact G].
Qed.

Lemma init_world_good E : good E init.
Proof.
  split; [split; [intros c; reflexivity|]; split; [intros k t H; discriminate|]; split; [intros i it d v H; discriminate|];
          intros i; reflexivity|].
  split; [intros b bk L f H; destruct b; discriminate | intros e []].
Qed.

Lemma run_cons E w o ops : fst (run E w (o :: ops)) = fst (run E (fst (step E w o)) ops).
Proof. simpl. destruct (step E w o) as [w1 x]. simpl. destruct (run E w1 ops). reflexivity. Qed.

Lemma run_good E : forall ops w, good E w -> good E (fst (run E w ops)).
Proof. induction ops as [|o ops IH]; intros w G; [exact G|]. rewrite run_cons. apply IH, step_good, G. Qed.

Theorem reachable_good E ops : good E (fst (run E init ops)).
Proof. apply run_good, init_world_good. Qed.

(* the same probe in a world where nothing has happened: one new backend of the same configuration *)
Definition fresh_world (E : env) (bk : backend) : world :=
  fst (step E init (ONew (b_cls bk) (b_user bk) (b_collect bk) (b_opts bk))).

Lemma fresh_world_good E bk : good E (fresh_world E bk).
Proof. apply (step_good E init), init_world_good. Qed.

Theorem fresh_rule E ops b bk fmt r :
  let w := fst (run E init ops) in
  nth_error (w_bks w) b = Some bk -> owns_ok E w bk = true -> fmt_ok bk fmt = true ->
  out_obs (snd (step E w (OConvRule b r fmt))) = out_obs (snd (step E (fresh_world E bk) (OConvRule 0 r fmt))).
Proof.
  intros w Hb Ho Hf. subst w. destruct (reachable_good E ops) as (S & P & _), (fresh_world_good E bk) as (S' & P' & _).
  rewrite (frame_rule E _ b bk fmt r S P Hb Ho Hf). symmetry.
  (* backend 0 of the fresh world has no pipeline object yet: `owns_ok` and `fmt_ok` hold of it by computation *)
  exact (frame_rule E (fresh_world E bk) 0 _ fmt r S' P' eq_refl eq_refl eq_refl).
Qed.

Theorem fresh_coll E ops b bk fmt rs :
  let w := fst (run E init ops) in
  nth_error (w_bks w) b = Some bk ->
  out_obs (snd (step E w (OConvColl b rs fmt))) = out_obs (snd (step E (fresh_world E bk) (OConvColl 0 rs fmt))).
Proof.
  intros w Hb. subst w. rewrite (frame_coll E _ b bk fmt rs (proj1 (reachable_good E ops)) Hb). symmetry.
  exact (frame_coll E (fresh_world E bk) 0 _ fmt rs (proj1 (fresh_world_good E bk)) eq_refl).
Qed.

Lemma hint_of_own w m : hints_own w -> hint_of w m = m.
Proof.
  intros H. unfold hint_of. destruct (find (fun e => N.eqb (fst e) m) (w_hints w)) as [e|] eqn:Ef; [|reflexivity].
  apply find_some in Ef. destruct Ef as [Hin He]. apply N.eqb_eq in He. rewrite (H e Hin). exact He.
Qed.

Theorem frame_load E w r : hints_own w -> o_res (out_obs (snd (step E w (OLoad r)))) = ideal_load E r.
Proof.
  intros H. simpl. unfold load_check, ideal_load.
  induction (r_mods r) as [|mt l IH]; simpl; [destruct (r_bad r); reflexivity|].
  rewrite (hint_of_own w (fst mt) H). destruct (e_accepts E (fst mt) (snd mt)); [exact IH | reflexivity].
Qed.

Theorem reachable_load E ops r :
  let w := fst (run E init ops) in
  o_res (out_obs (snd (step E w (OLoad r)))) = ideal_load E r /\
  (forall e, In e (w_hints w) -> snd e = fst e).
Proof. destruct (reachable_good E ops) as (_ & _ & H). exact (conj (frame_load E _ r H) H). Qed.

Theorem state_restored E ops :
  let w := fst (run E init ops) in
  tpl_orig (w_tpl w) /\ cache_sound E (w_cache w) /\ vc_sound E (w_vc w) /\
  (forall b bk L f, nth_error (w_bks w) b = Some bk -> b_last bk = Some (L, f) ->
     w_pvars w L = init_vars E (b_cls bk) (b_user bk) (b_opts bk) f) /\
  nest0 (w_nest w).
Proof.
  destruct (reachable_good E ops) as ((Ht & Hc & Hv & Hn) & Hp & _). repeat split; try assumption.
  intros b bk L f Hb Hl. exact (proj2 (Hp b bk L f Hb Hl)).
Qed.
