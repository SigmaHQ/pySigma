(* C14 - histories: as long as every conversion runs a pipeline that still owns its objects, the heap
   machine (Model.Pipeline.mexec) shows exactly what the value-only specification of the history
   (Spec.AbsPipeline.aexec) shows.  The two machines are run in step; every operation of the heap
   machine is one of those that Proofs.PipelineP shows to refine its specification.
   (Model/History.v is the model of C15; its proofs are in History15P.v.) *)
From Coq Require Import NArith ZArith List Bool.
From PS Require Import Base.Chars Base.Outcome Spec.AbsPipeline Model.Pipeline Proofs.OutcomeP Proofs.CharsP Proofs.PipelineP.
Import ListNotations.
Open Scope N_scope.

Lemma to_tree_ok regs e : itree_ok (length regs) e = if to_tree regs e then true else false.
Proof.
  induction e as [i|a IHa b IHb]; cbn.
  - destruct (nth_error regs i) eqn:E; [apply Nat.ltb_lt, nth_error_Some; congruence|].
    apply Nat.ltb_ge, nth_error_None, E.
  - rewrite IHa, IHb. destruct (to_tree regs a), (to_tree regs b); reflexivity.
Qed.
Lemma to_tree_aeval v regs e : forall t, to_tree regs e = Some t ->
  aeval (map v regs) e = teval v t /\ incl (leaves t) regs.
Proof.
  induction e as [i|a IHa b IHb]; cbn; intros t T.
  - rewrite nth_error_map. destruct (nth_error regs i) as [p|] eqn:E; [|discriminate]. injection T as <-.
    split; [reflexivity|]. intros q [<-|[]]. exact (nth_error_In _ _ E).
  - destruct (to_tree regs a) as [ta|]; [|discriminate]. destruct (to_tree regs b) as [tb|]; [|discriminate].
    injection T as <-. destruct (IHa _ eq_refl) as [-> Ia], (IHb _ eq_refl) as [-> Ib].
    split; [reflexivity | apply incl_app; assumption].
Qed.

Lemma nths_map {A B} (g : A -> B) l is : nths (map g l) is = option_map (map g) (nths l is).
Proof.
  induction is as [|i is IH]; cbn; [reflexivity|]. rewrite IH, nth_error_map.
  destruct (nth_error l i), (nths l is); reflexivity.
Qed.
Lemma nths_in {A} (l : list A) is : forall r, nths l is = Some r -> incl r l.
Proof.
  induction is as [|i is IH]; cbn; intros r H; [injection H as <-; intros x []|].
  destruct (nth_error l i) as [a|] eqn:E; [|discriminate]. destruct (nths l is) as [r'|]; [|discriminate].
  injection H as <-. intros x [<-|Hx]; [exact (nth_error_In _ _ E) | exact (IH _ eq_refl x Hx)].
Qed.

Lemma ownedb_owned h p : ownedb h p = true -> owned h p.
Proof.
  unfold ownedb, owned. rewrite forallb_forall. intros H u Hu. specialize (H u Hu).
  destruct (h_own h u) as [o|]; [|discriminate]. apply N.eqb_eq in H. subst. reflexivity.
Qed.
Lemma fmt_eqb_eq a b : fmt_eqb a b = true -> a = b.
Proof. destruct a, b; cbn; intros H; try reflexivity; discriminate. Qed.
Lemma am_set_last_same a b up : am_last a b = Some up -> am_set_last a b up = a.
Proof. destruct a, b; cbn; intros ->; reflexivity. Qed.
Lemma run_dom_prev m o d : run_dom m o d = true -> d = true /\ run_dom m o true = true.
Proof.
  destruct o; cbn; intros H; try (split; [exact H | reflexivity]).
  apply andb_true_iff in H. destruct H as [-> H]. split; [reflexivity | exact H].
Qed.

Definition oabs (h : heap) (o : option ppl) : option apipe := option_map (abs h) o.

Section Machines.
  Variables (t : list (str * rent ppl)) (bk : ppl) (outf : fmt -> ppl) (rules : list rule).
  Variables (atab : list (str * rent aval)) (abk : apipe) (aoutf : fmt -> apipe).
  Hypothesis t_objs : objs_only t.

  Definition envok (h : heap) : Prop :=
    (forall e, In e t -> valid h (ent_ppl e)) /\ valid h bk /\ (forall f, valid h (outf f)) /\
    atab = map (emap (gval h)) t /\ abk = abs h bk /\ forall f, aoutf f = abs h (outf f).
  (* the backend object's pipeline is the composition, for the format it was built for, of the values
     the specification remembers *)
  Definition lastrel (h : heap) (ml : option (ppl * fmt)) (al : option (option apipe)) : Prop :=
    match ml, al with
    | Some pf, Some up => ainit (snd pf) abk up (aoutf (snd pf)) = Ok (abs h (fst pf)) /\ valid h (fst pf)
    | None, None => True
    | _, _ => False
    end.
  Record inv (m : mach) (a : amach) : Prop := {
    inv_regs : am_regs a = map (abs (mc_heap m)) (mc_regs m);
    inv_valid : Forall (valid (mc_heap m)) (mc_regs m);
    inv_lastA : lastrel (mc_heap m) (mc_lastA m) (am_lastA a);
    inv_lastB : lastrel (mc_heap m) (mc_lastB m) (am_lastB a);
    inv_res : am_res a = mc_res m;
    inv_fresh : am_fresh a = mc_fresh m;
    inv_env : envok (mc_heap m) }.
  Definition osim : outcome mach -> outcome amach -> Prop := orel inv.

  Lemma envok_frame h h' : frame h h' -> envok h -> envok h'.
  Proof.
    intros F (Vt & Vb & Vo & Et & Eb & Eo).
    split; [intros e He; exact (valid_frame _ _ _ F (Vt e He))|]. split; [exact (valid_frame _ _ _ F Vb)|].
    split; [intros f; exact (valid_frame _ _ _ F (Vo f))|]. split; [|split].
    - rewrite Et. apply map_ext_in. intros e He. specialize (Vt e He). unfold emap, gval, ent_ppl in *.
      destruct (snd e); [rewrite (abs_frame h h') by assumption|..]; reflexivity.
    - rewrite Eb. symmetry. apply abs_frame; assumption.
    - intros f. rewrite Eo. symmetry. apply abs_frame, Vo. exact F.
  Qed.
  Lemma lastrel_frame h h' ml al : frame h h' -> lastrel h ml al -> lastrel h' ml al.
  Proof.
    intros F. unfold lastrel. destruct ml as [pf|], al as [up|]; try exact (fun x => x).
    intros (E & V). rewrite (abs_frame h h') by assumption. split; [exact E | exact (valid_frame _ _ _ F V)].
  Qed.

  Definition with_heap (m : mach) (h : heap) : mach :=
    {| mc_heap := h; mc_regs := mc_regs m; mc_lastA := mc_lastA m; mc_lastB := mc_lastB m; mc_res := mc_res m;
       mc_fresh := mc_fresh m |}.
  Lemma inv_frame m a h' : inv m a -> frame (mc_heap m) h' -> inv (with_heap m h') a.
  Proof.
    intros [Er Vr LA LB Es Ef En] F. constructor; cbn; eauto using lastrel_frame, envok_frame.
    - rewrite Er. apply map_ext_in. intros p Hp. symmetry. apply abs_frame; [exact F|].
      exact (proj1 (Forall_forall _ _) Vr p Hp).
    - eapply Forall_impl; [|exact Vr]. intros p. apply valid_frame, F.
  Qed.

  Lemma push_sim m a c x ar : inv m a -> refines (mc_heap m) x ar ->
    osim (mc_push m c x) (obind ar (fun p => Ok (am_push a c p))).
  Proof.
    intros I (F & <- & V). destruct x as [h' [s|e|e]]; cbn; try reflexivity.
    apply (inv_frame _ _ h') in I; [|exact F]. destruct I as [Er Vr LA LB Es Ef En]. constructor; cbn in *; auto.
    - rewrite map_app, Er. reflexivity.
    - apply Forall_app. split; [exact Vr | constructor; [apply V; reflexivity | constructor]].
  Qed.

  Lemma user_sim m a u : inv m a -> orel (fun up aup => aup = oabs (mc_heap m) up) (mc_user m u) (am_user a u).
  Proof.
    intros I. unfold am_user, mc_user. destruct u as [i|]; [|reflexivity].
    rewrite (inv_regs _ _ I), nth_error_map. destruct (nth_error (mc_regs m) i); reflexivity.
  Qed.

  Lemma init_last m a b f up : inv m a ->
    orel (fun m' v => inv m' (am_set_last a b (oabs (mc_heap m) up)) /\
                      exists p, mc_last m' b = Some (p, f) /\ v = abs (mc_heap m') p /\ owned (mc_heap m') p)
         (mc_set_last m b f (init (mc_heap m) f bk up (outf f))) (ainit f abk (oabs (mc_heap m) up) (aoutf f)).
  Proof.
    intros I. destruct (inv_env _ _ I) as (_ & _ & Vo & _ & Eb & Eo).
    destruct (init_refines (mc_heap m) f bk up (outf f) (Vo f)) as (F & E & V). rewrite <- Eb, <- Eo in E. unfold oabs. rewrite <- E.
    unfold mc_set_last. destruct (init (mc_heap m) f bk up (outf f)) as [h' [s|x|x]] eqn:Ei;
      cbn [fst snd absr obind orel] in *; try reflexivity.
    split; [|exists s; split; [destruct b; reflexivity|]; split; [reflexivity | exact (init_owned _ _ _ _ _ _ _ Ei)]].
    assert (L : lastrel h' (Some (s, f)) (Some (oabs (mc_heap m) up))) by (split; [symmetry; exact E | exact (V s eq_refl)]).
    apply (inv_frame _ _ h') in I; [|exact F]. destruct I. constructor; cbn in *; auto; destruct b; assumption.
  Qed.

  Lemma run_sim m a b f p : inv m a -> mc_last m b = Some (p, f) -> owned (mc_heap m) p ->
    osim (mc_run f rules m b) (obind (abs_run f (abs (mc_heap m) p) rules) (fun r => Ok (am_with_res a r))).
  Proof.
    intros I L O. unfold mc_run. rewrite L. cbn [fst]. destruct (run_ref _ f p rules O) as [<- S].
    apply same_frame in S. destruct (m_run (mc_heap m) f p rules) as [h' [x|e|e]]; cbn; try reflexivity.
    apply (inv_frame _ _ h') in I; [|exact S]. destruct I. constructor; cbn in *; auto.
  Qed.

  (* what Backend.convert() and convert_rule() on a backend object that has no pipeline yet have in common *)
  Lemma convert_sim m a b f up : inv m a ->
    osim (obind (mc_set_last m b f (init (mc_heap m) f bk up (outf f))) (fun m' => mc_run f rules m' b))
         (obind (ainit f abk (oabs (mc_heap m) up) (aoutf f)) (fun p =>
          obind (abs_run f p rules) (fun r => Ok (am_with_res (am_set_last a b (oabs (mc_heap m) up)) r)))).
  Proof.
    intros I. eapply orel_bind; [exact (init_last m a b f up I)|]. intros m' v (I' & p & L & -> & O).
    exact (run_sim _ _ b f p I' L O).
  Qed.

  Lemma step_sim m a o : inv m a -> run_dom m o true = true ->
    osim (mstep t bk outf rules m o) (astep atab abk aoutf rules (Ok a) o).
  Proof.
    intros I D. destruct (inv_env _ _ I) as (Vt & _ & _ & Et & _).
    destruct o as [e|specs|l|b u f|b f|b u f]; cbn [mstep astep obind].
    - rewrite (inv_regs _ _ I), map_length, to_tree_ok, (inv_fresh _ _ I).
      destruct (to_tree (mc_regs m) e) as [tr|] eqn:Tr; [|reflexivity].
      destruct (to_tree_aeval (abs (mc_heap m)) _ _ _ Tr) as [-> Hl].
      apply push_sim; [exact I|]. exact (eval_refines _ _ (incl_Forall Hl (inv_valid _ _ I))).
    - rewrite (inv_fresh _ _ I), Et. cbn zeta.
      destruct (resolve_refines (mc_heap m) (mc_fresh m) t specs t_objs Vt) as [R ->]. apply push_sim; assumption.
    - rewrite (inv_regs _ _ I), nths_map, (inv_fresh _ _ I).
      destruct (nths (mc_regs m) l) as [[|p ps]|] eqn:En; cbn [option_map map]; try reflexivity.
      apply (push_sim m a _ _ (asum (map (abs (mc_heap m)) (p :: ps))) I), psum_refines.
      exact (incl_Forall (nths_in _ _ _ En) (inv_valid _ _ I)).
    - eapply orel_bind; [exact (user_sim m a u I)|]. intros up ? ->. pose proof (init_last m a b f up I) as K.
      destruct (mc_set_last _ _ _ _), (ainit _ _ _ _); try exact K. apply K.
    - (* OpRun, the one operation that run_dom restricts: on an initialised backend object the pipeline must own
         its objects and be built for f; then the specification, which composes anew, has the same pipeline *)
      cbn [run_dom andb] in D.
      assert (LR : lastrel (mc_heap m) (mc_last m b) (am_last a b)) by (destruct b; apply I).
      destruct (mc_last m b) as [[p f0]|] eqn:Lm, (am_last a b) as [up|] eqn:La; try contradiction.
      + destruct LR as [Ea _]. cbn [fst snd] in *. apply andb_true_iff in D as [Do Df]. apply fmt_eqb_eq in Df as ->.
        rewrite Ea, (am_set_last_same _ _ _ La). cbn [obind].
        apply run_sim; [exact I | exact Lm | exact (ownedb_owned _ _ Do)].
      + apply (convert_sim m a b f None I).
    - eapply orel_bind; [exact (user_sim m a u I)|]. intros up ? ->. apply convert_sim, I.
  Qed.

  (* a flag that is false stays false (run_dom_prev): nothing is asked of the machines then *)
  Lemma fold_sim prog mo d ao : (d = true -> osim mo ao) ->
    snd (fold_left (mstep_acc t bk outf rules) prog (mo, d)) = true ->
    osim (fst (fold_left (mstep_acc t bk outf rules) prog (mo, d))) (fold_left (astep atab abk aoutf rules) prog ao).
  Proof.
    intros H0. apply (fold_rel (fun md ao => snd md = true -> osim (fst md) ao)); [clear H0 | exact H0].
    intros [mo' d'] ao' o _ H. unfold mstep_acc. cbn [fst snd] in *. destruct mo' as [m|x|x]; cbn [fst snd]; intros D.
    2,3: specialize (H D); destruct ao'; try contradiction; exact H.
    apply run_dom_prev in D as [-> D]. specialize (H eq_refl). destruct ao' as [a|?|?]; try contradiction.
    apply step_sim; assumption.
  Qed.
  Lemma osim_res mo ao : osim mo ao ->
    obind mo (fun m => match mc_res m with Some x => Ok x | None => Crash C_Harness end) =
    obind ao (fun a => match am_res a with Some r => Ok r | None => Crash C_Harness end).
  Proof.
    destruct mo as [m|x|x], ao as [a|x'|x']; cbn; try contradiction; try congruence.
    intros [_ _ _ _ -> _ _]. reflexivity.
  Qed.
End Machines.

Lemma mk_defs_spec ds : forall h h' l, mk_defs h ds = (h', Ok l) ->
  frame h h' /\ map (gval h') l = map adef ds /\ map p_name l = map d_name ds /\ Forall (valid h') l.
Proof.
  induction ds as [|d ds IH]; intros h h' l E; cbn [mk_defs] in E.
  - injection E as <- <-. split; [apply frame_refl | repeat split; constructor].
  - apply hbind_ok in E as (h1 & p & E1 & E). apply hbind_ok in E as (h2 & l' & E2 & [= <- <-]).
    destruct (IH _ _ _ E2) as (F2 & G2 & N2 & V2). unfold mk_def in E1.
    pose proof (mk_frame h (d_items d) (d_post d) (d_fin d) (d_vars d) (d_prio d) (d_name d)) as F1.
    rewrite E1 in F1. apply mk_abs_owned in E1 as (Ep & A & Vp & _).
    split; [exact (frame_trans _ _ _ F1 F2)|]. cbn [map]. rewrite G2, N2.
    split; [|split; [rewrite Ep; reflexivity | constructor; [exact (valid_frame _ _ _ F2 Vp) | exact V2]]].
    f_equal. unfold gval. rewrite (abs_frame _ _ _ F2 Vp), A, Ep. reflexivity.
Qed.

Lemma nth_error_app_add {A} (l1 l2 : list A) k : nth_error (l1 ++ l2) (k + length l1) = nth_error l2 k.
Proof. rewrite nth_error_app2, Nat.add_sub by apply Nat.le_add_l. reflexivity. Qed.

Definition tn_objs (tn : list (str * rent nat)) : Prop := forall e, In e tn -> exists i, snd e = RObj i.

Lemma conv_tab_map {A B} (g : A -> B) l tn : conv_tab (map g l) tn = option_map (map (emap g)) (conv_tab l tn).
Proof.
  induction tn as [|[s [i|d|ds]] tn IH]; cbn [conv_tab]; [reflexivity | |rewrite IH; destruct (conv_tab l tn); reflexivity..].
  rewrite nth_error_map, IH. destruct (nth_error l i), (conv_tab l tn); reflexivity.
Qed.
Lemma conv_tab_objs {A} (l : list A) tn : forall t, conv_tab l tn = Some t -> tn_objs tn ->
  forall e, In e t -> exists a, snd e = RObj a /\ In a l.
Proof.
  induction tn as [|[s e] tn IH]; cbn [conv_tab]; intros t E O x Hx; [injection E as <-; destruct Hx|].
  destruct (O (s, e) (or_introl eq_refl)) as [i Hi]. cbn in Hi. subst e.
  destruct (nth_error l i) as [a|] eqn:En; [|discriminate]. destruct (conv_tab l tn) as [t'|]; [|discriminate].
  injection E as <-. destruct Hx as [<-|Hx]; [exists a; split; [reflexivity | exact (nth_error_In _ _ En)]|].
  exact (IH t' eq_refl (fun e He => O e (or_intror He)) x Hx).
Qed.

(* On the histories that the second component of mexec admits (every convert_rule() on an initialised backend
   object finds a pipeline that still owns its objects and was built for the requested format) the heap machine
   shows what the value-only specification shows: backend + current user pipeline + output-format pipeline of the
   requested format, staged.  Without that premise the statement is false: history_refuted, history_format_refuted. *)
Theorem history_sound defs tn bkd od ot os rules prog h0 l :
  tn_objs tn ->
  mk_defs h_empty (defs ++ [bkd; od; ot; os]) = (h0, Ok l) ->
  snd (mexec defs tn bkd od ot os rules prog) = true ->
  fst (mexec defs tn bkd od ot os rules prog)
  = aexec (map adef defs) tn (apipe_of bkd) (by_fmt (apipe_of od) (apipe_of ot) (apipe_of os)) rules prog.
Proof.
  intros TO E0. destruct (mk_defs_spec _ _ _ _ E0) as (_ & G & _ & V).
  rewrite map_app in G. apply map_eq_app in G as (l1 & l2 & -> & Gl & G4).
  apply map_eq_cons in G4 as (bk & ? & -> & Gb & G4). apply map_eq_cons in G4 as (o1 & ? & -> & G1 & G4).
  apply map_eq_cons in G4 as (o2 & ? & -> & G2 & G4). apply map_eq_cons in G4 as (o3 & ? & -> & G3 & ->%map_eq_nil).
  apply Forall_app in V as [Vl V4]. rewrite Forall_forall in Vl, V4.
  assert (Len : length defs = length l1) by (rewrite <- (map_length adef), <- Gl; apply map_length).
  destruct (mexec defs tn bkd od ot os rules prog) as [r d] eqn:Em. cbn [fst snd]. unfold mexec in Em.
  rewrite E0 in Em. cbn [fst snd] in Em.
  rewrite Len, (nth_error_app_add l1 _ 0), (nth_error_app_add l1 _ 1), (nth_error_app_add l1 _ 2),
    (nth_error_app_add l1 _ 3), firstn_app_length in Em. cbn [nth_error] in Em.
  unfold aexec. rewrite <- Gl, conv_tab_map.
  destruct (conv_tab l1 tn) as [t|] eqn:Ct; cbn [option_map]; [|injection Em as <- _; reflexivity].
  assert (Ot : objs_only t) by (intros e He; destruct (conv_tab_objs _ _ _ Ct TO e He) as (a & Ea & _); exists a; exact Ea).
  injection Em as <- <-. intros D. eapply osim_res, fold_sim; [exact Ot | intros _; constructor; cbn; auto | exact D].
  - rewrite map_map. reflexivity.
  - apply Forall_forall, Vl.
  - split; [|split; [apply V4; cbn; auto|]; split; [intros [| |]; apply V4; cbn; auto|]; split; [reflexivity|]].
    + intros e He. destruct (conv_tab_objs _ _ _ Ct TO e He) as (a & Ea & Ha). rewrite (ent_ppl_obj _ _ Ea).
      exact (Vl a Ha).
    + split; [exact (eq_sym (f_equal fst Gb))|].
      intros [| |]; [exact (eq_sym (f_equal fst G1)) | exact (eq_sym (f_equal fst G2)) | exact (eq_sym (f_equal fst G3))].
Qed.

(* the witness of D18 as a history: a + b, backend initialised with it, a + b once more, convert_rule *)
Definition w_defA : pdef := {| d_items := [w_item]; d_post := []; d_fin := []; d_vars := []; d_prio := 0%Z; d_name := Some [97] |}.
Definition w_defE (n : option str) : pdef := {| d_items := []; d_post := []; d_fin := []; d_vars := []; d_prio := 0%Z; d_name := n |}.
Definition w_sum : itree := IPlus (ILeaf 0) (ILeaf 1).
Definition w_prog_stale : list op := [OpTree w_sum; OpInit false (Some 2%nat) FState; OpTree w_sum; OpRun false FState].
Definition w_prog_fresh : list op := [OpTree w_sum; OpTree w_sum; OpConvert false (Some 3%nat) FState].
(* the witness of D30: convert() for format test, then convert_rule() for format state *)
Definition w_defO (v : str) : pdef :=
  {| d_items := [ {| i_uid := 2; i_id := v; i_kind := KAddCond [111] v; i_cond := CNone |} ]; d_post := []; d_fin := [];
     d_vars := []; d_prio := 0%Z; d_name := None |}.
Definition w_prog_fmt : list op := [OpConvert false (Some 0%nat) FTest; OpRun false FState].

Lemma history_refuted :
  exists defs tn bkd od ot os rules prog l,
    tn_objs tn /\ snd (mk_defs h_empty (defs ++ [bkd; od; ot; os])) = Ok l /\
    snd (mexec defs tn bkd od ot os rules prog) = false /\
    fst (mexec defs tn bkd od ot os rules prog)
    <> aexec (map adef defs) tn (apipe_of bkd) (by_fmt (apipe_of od) (apipe_of ot) (apipe_of os)) rules prog.
Proof.
  exists [w_defA; w_defE (Some [98])], [], (w_defE None), (w_defE None), (w_defE None), (w_defE None), w_rules, w_prog_stale.
  eexists. split; [intros e []|]. split; [vm_compute; reflexivity|]. split; [vm_compute; reflexivity|]. vm_compute. discriminate.
Qed.

(* convert_rule() for a format other than the one the backend object's pipeline was built for runs the other
   format's output-format pipeline (D30).  The statement is that of history_refuted word for word:
   that ownership is intact here and only the format is stale shows in the witness alone. *)
Lemma history_format_refuted :
  exists defs tn bkd od ot os rules prog l,
    tn_objs tn /\ snd (mk_defs h_empty (defs ++ [bkd; od; ot; os])) = Ok l /\
    snd (mexec defs tn bkd od ot os rules prog) = false /\
    fst (mexec defs tn bkd od ot os rules prog)
    <> aexec (map adef defs) tn (apipe_of bkd) (by_fmt (apipe_of od) (apipe_of ot) (apipe_of os)) rules prog.
Proof.
  exists [w_defE (Some [97])], [], (w_defE None), (w_defE None), (w_defO [116]),
         {| d_items := [ {| i_uid := 3; i_id := [115]; i_kind := KAddCond [111] [115]; i_cond := CNone |} ]; d_post := []; d_fin := [];
            d_vars := []; d_prio := 0%Z; d_name := None |}, w_rules, w_prog_fmt.
  eexists. split; [intros e []|]. split; [vm_compute; reflexivity|]. split; [vm_compute; reflexivity|]. vm_compute. discriminate.
Qed.

Lemma history_inhabited :
  exists l, snd (mk_defs h_empty ([w_defA; w_defE (Some [98])] ++ [w_defE None; w_defE None; w_defE None; w_defE None])) = Ok l /\
  snd (mexec [w_defA; w_defE (Some [98])] [] (w_defE None) (w_defE None) (w_defE None) (w_defE None) w_rules w_prog_fresh) = true /\
  exists r, fst (mexec [w_defA; w_defE (Some [98])] [] (w_defE None) (w_defE None) (w_defE None) (w_defE None) w_rules w_prog_fresh) = Ok r.
Proof.
  eexists. split; [vm_compute; reflexivity|]. split; [vm_compute; reflexivity|]. eexists. vm_compute. reflexivity.
Qed.
