(* C15 - the syntactic condition `no_sharing` on a history implies the semantic premise of the
   frame theorem for convert_rule (every backend's pipeline items point to its own pipeline object)
   in every reachable world. *)
From Coq Require Import NArith List Bool Arith Lia.
From PS Require Import Model.History Spec.Frame Proofs.CharsP Proofs.History15P.
Import ListNotations.
Open Scope N_scope.

Definition cfg_of (bk : backend) : N * option N := (b_cls bk, b_user bk).

(* the test `no_sharing_l` makes of a configuration against each later one *)
Definition sep (E : env) (fmts : list N) (c1 c2 : N * option N) : bool :=
  negb (N.eqb (fst c2) (fst c1) && class_has_items E fmts (fst c1))
  && negb (match snd c1, snd c2 with
           | Some o, Some o' => N.eqb o o' && negb (match e_user E o with [] => true | _ => false end)
           | _, _ => false end).

Lemma no_sharing_cons E fmts c rest :
  no_sharing_l E fmts (c :: rest) = forallb (sep E fmts c) rest && no_sharing_l E fmts rest.
Proof. destruct c as [cl u]. reflexivity. Qed.

Lemma no_sharing_nth E fmts : forall l i j c1 c2, no_sharing_l E fmts l = true -> (i < j)%nat ->
  nth_error l i = Some c1 -> nth_error l j = Some c2 -> sep E fmts c1 c2 = true.
Proof.
  induction l as [|c l IH]; intros i j c1 c2 H Hij H1 H2.
  - destruct i; discriminate.
  - rewrite no_sharing_cons in H. apply andb_true_iff in H. destruct H as [Ha Hb].
    destruct i as [|i]; destruct j as [|j]; try lia; simpl in H1, H2.
    + inversion H1; subst. rewrite forallb_forall in Ha. apply Ha. eapply nth_error_In. exact H2.
    + eapply IH; [exact Hb | | exact H1 | exact H2]. lia.
Qed.

Lemma no_sharing_prefix E fmts : forall l1 l2, no_sharing_l E fmts (l1 ++ l2) = true -> no_sharing_l E fmts l1 = true.
Proof.
  induction l1 as [|c l1 IH]; intros l2 H; [reflexivity|].
  simpl app in H. rewrite no_sharing_cons in *. apply andb_true_iff in H. destruct H as [Ha Hb].
  apply andb_true_iff. split; [|eapply IH; exact Hb].
  rewrite forallb_app in Ha. apply andb_true_iff in Ha. apply Ha.
Qed.

Lemma in_tagp s its i : In i (map fst (tagp s its)) -> fst i = s /\ its <> [].
Proof.
  intros H. apply in_map_iff in H. destruct H as [p [<- Hp]]. destruct (tagp_valid s its 0%nat p Hp) as (n & -> & H2).
  split; [reflexivity|]. intros ->. destruct n; discriminate.
Qed.

Lemma in_pairs E cls user fmt i : In i (map fst (pipe_pairs E cls user fmt)) ->
  match fst i with
  | SBk c => c = cls /\ e_bk E c <> []
  | SFmt c f => c = cls /\ f = fmt /\ e_fmt E c f <> []
  | SUser o => user = Some o /\ e_user E o <> []
  end.
Proof.
  unfold pipe_pairs. rewrite !map_app, !in_app_iff. intros [H|[H|H]].
  - apply in_tagp in H. destruct H as [-> H]. tauto.
  - destruct user as [o|]; [|destruct H]. apply in_tagp in H. destruct H as [-> H]. tauto.
  - apply in_tagp in H. destruct H as [-> H]. tauto.
Qed.

Lemma class_items_bk E fmts c : e_bk E c <> [] -> class_has_items E fmts c = true.
Proof. intros H. unfold class_has_items. destruct (e_bk E c); [congruence | reflexivity]. Qed.
Lemma class_items_fmt E fmts c f : In f fmts -> e_fmt E c f <> [] -> class_has_items E fmts c = true.
Proof.
  intros Hf H. unfold class_has_items. apply orb_true_iff. right. apply existsb_exists. exists f.
  split; [exact Hf|]. destruct (e_fmt E c f); [congruence | reflexivity].
Qed.

Lemma sep_disjoint E fmts c1 c2 f1 f2 i : sep E fmts c1 c2 = true -> In f1 fmts ->
  In i (map fst (pipe_pairs E (fst c1) (snd c1) f1)) -> In i (map fst (pipe_pairs E (fst c2) (snd c2) f2)) -> False.
Proof.
  intros Hs Hf1 H1 H2. apply in_pairs in H1. apply in_pairs in H2.
  unfold sep in Hs. apply andb_true_iff in Hs. destruct Hs as [Hc Hu]. apply negb_true_iff in Hc, Hu.
  destruct (fst i) as [c|c f|o].
  - destruct H1 as [-> N1], H2 as [E2 _]. rewrite <- E2, N.eqb_refl, (class_items_bk E fmts _ N1) in Hc. discriminate.
  - destruct H1 as (-> & -> & N1), H2 as (E2 & _). rewrite <- E2, N.eqb_refl, (class_items_fmt E fmts _ f1 Hf1 N1) in Hc.
    discriminate.
  - destruct H1 as [U1 N1], H2 as [U2 _]. rewrite U1, U2, N.eqb_refl in Hu. destruct (e_user E o); [congruence | discriminate].
Qed.

Lemma no_sharing_apart E fmts l i j c1 c2 f1 f2 x : no_sharing_l E fmts l = true -> i <> j ->
  nth_error l i = Some c1 -> nth_error l j = Some c2 -> In f1 fmts -> In f2 fmts ->
  In x (map fst (pipe_pairs E (fst c1) (snd c1) f1)) -> In x (map fst (pipe_pairs E (fst c2) (snd c2) f2)) -> False.
Proof.
  intros Hns Hij H1 H2 Hf1 Hf2 X1 X2. destruct (proj1 (Nat.lt_gt_cases i j) Hij) as [Hlt|Hgt].
  - exact (sep_disjoint E fmts c1 c2 f1 f2 x (no_sharing_nth E fmts l i j c1 c2 Hns Hlt H1 H2) Hf1 X1 X2).
  - exact (sep_disjoint E fmts c2 c1 f2 f1 x (no_sharing_nth E fmts l j i c2 c1 Hns Hgt H2 H1) Hf2 X2 X1).
Qed.

(* The configurations of the backends that exist, followed by those still to be created (`rest`), pass `no_sharing_l`:
   that list is the same along the whole run (`step_inv` moves a configuration from `rest` into the world), which is
   what separates a backend from one created after its pipeline object.  The items of every backend's pipeline object
   point to it, and it was built for one of the formats `no_sharing` looked at (`no_sharing_apart` asks that of both
   backends in `init_inv`). *)
Definition Inv (E : env) (fmts : list N) (rest : list (N * option N)) (w : world) : Prop :=
  no_sharing_l E fmts (map cfg_of (w_bks w) ++ rest) = true /\
  forall b bk, nth_error (w_bks w) b = Some bk ->
    owns_ok E w bk = true /\ forall L f, b_last bk = Some (L, f) -> In f fmts.

Lemma inv_evolves E fmts rest w w' : evolves E w w' -> Inv E fmts rest w -> Inv E fmts rest w'.
Proof.
  intros H [Hns I]. rewrite <- (evolves_bks E _ _ H) in Hns, I. split; [exact Hns|].
  intros b bk Hb. rewrite (owns_ok_ext E w w' bk (evolves_owner E _ _ H)). exact (I b bk Hb).
Qed.

Lemma init_cfgs E w b bk fmt : nth_error (w_bks w) b = Some bk ->
  map cfg_of (w_bks (init_pipeline E w b bk fmt)) = map cfg_of (w_bks w).
Proof. intros Hb. apply (set_nth_map cfg_of (w_bks w) b _ bk Hb). reflexivity. Qed.

Lemma init_inv E fmts rest w b bk fmt :
  In fmt fmts -> nth_error (w_bks w) b = Some bk -> Inv E fmts rest w -> Inv E fmts rest (init_pipeline E w b bk fmt).
Proof.
  intros Hf Hb [Hns I]. split; [rewrite (init_cfgs E w b bk fmt Hb); exact Hns|].
  apply no_sharing_prefix in Hns. intros b' bk' H'. simpl in H'. rewrite nth_error_set_nth in H'.
  destruct (Nat.eqb_spec b' b) as [->|Hne].
  - rewrite Hb in H'. injection H' as <-. split; [|intros L f [= _ <-]; exact Hf].
    eapply owns_ok_owned; [reflexivity | exact (init_owned E w b bk fmt)].
  - destruct (I b' bk' H') as [Io If]. split; [|exact If].
    unfold owns_ok in *. destruct (b_last bk') as [[L' f']|] eqn:El; [|reflexivity].
    rewrite forallb_forall in *. intros p Hp. specialize (Io p Hp). simpl.
    (* the new pipeline object takes over no item object of another backend *)
    destruct (existsb (iid_eqb (fst p)) (map fst (pipe_pairs E (b_cls bk) (b_user bk) fmt))) eqn:Ex; [exfalso | exact Io].
    apply iid_mem_In in Ex.
    exact (no_sharing_apart E fmts _ b' b (cfg_of bk') (cfg_of bk) f' fmt (fst p) Hns Hne
             (map_nth_error cfg_of _ _ H') (map_nth_error cfg_of _ _ Hb) (If L' f' eq_refl) Hf (in_map fst _ _ Hp) Ex).
Qed.

Lemma step_inv E fmts w o rest :
  Inv E fmts (news (o :: rest)) w -> op_fmt_ok fmts o = true -> Inv E fmts (news rest) (fst (step E w o)).
Proof.
  intros I Hfm. destruct o as [r|cls user collect opts|b fmt|b rs fmt|b r fmt].
  1: exact I.   (* loading writes to the type hints only *)
  1: { destruct I as [Hns I]. split; [simpl; rewrite map_app, <- app_assoc; exact Hns|].
       intros b bk H. simpl in H. apply nth_error_snoc in H.
       destruct H as [H| ->]; [exact (I b bk H) | split; [reflexivity | discriminate]]. }
  all: apply (step_keeps E (fun f => In f fmts) (Inv E fmts (news rest)) (inv_evolves E fmts _) (fun w _ I => I)
                (init_inv E fmts _));
    [exact (proj1 (existsb_eqb_In N.eqb fmt fmts N.eqb_eq) Hfm) | exact I].
Qed.

Lemma run_inv E fmts : forall ops w,
  Inv E fmts (news ops) w -> forallb (op_fmt_ok fmts) ops = true -> Inv E fmts [] (fst (run E w ops)).
Proof.
  induction ops as [|o ops IH]; intros w I Hf; [exact I|].
  simpl in Hf. apply andb_true_iff in Hf. destruct Hf as [Hf1 Hf2].
  rewrite run_cons. exact (IH _ (step_inv E fmts w o ops I Hf1) Hf2).
Qed.

Theorem no_sharing_owns E fmts ops :
  no_sharing E fmts ops = true -> forallb (op_fmt_ok fmts) ops = true ->
  forall b bk, nth_error (w_bks (fst (run E init ops))) b = Some bk -> owns_ok E (fst (run E init ops)) bk = true.
Proof.
  intros Hns Hf b bk Hb.
  assert (I : Inv E fmts (news ops) init) by (split; [exact Hns | intros [|b'] bk' H; discriminate]).
  exact (proj1 (proj2 (run_inv E fmts ops init I Hf) b bk Hb)).
Qed.

Theorem frame_rule_no_sharing E fmts ops b bk fmt r :
  no_sharing E fmts ops = true -> forallb (op_fmt_ok fmts) ops = true ->
  let w := fst (run E init ops) in
  nth_error (w_bks w) b = Some bk -> fmt_ok bk fmt = true ->
  out_obs (snd (step E w (OConvRule b r fmt))) = ideal_obs_rule E (b_cls bk) (b_user bk) (b_collect bk) (b_opts bk) fmt r.
Proof.
  intros Hns Hf w Hb Hfm. destruct (reachable_good E ops) as (S & P & _).
  exact (frame_rule E w b bk fmt r S P Hb (no_sharing_owns E fmts ops Hns Hf b bk Hb) Hfm).
Qed.
