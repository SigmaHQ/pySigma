(* field in (v1, ..., vn) rendered by the verification backend reads back as the list of the values' keys
   and is one lexical unit (theorem inlist_faithful). *)
From Coq Require Import NArith List Bool Lia String.
From PS Require Import Base.Chars Base.Outcome Model.Leaf Spec.Atom Spec.Lex Spec.Query Proofs.OutcomeP Proofs.AtomP Proofs.LeafP
  Proofs.LeafLexP.
Import ListNotations.
Open Scope N_scope.

(* The values a list may hold.  The list reader gives every quoted literal the key of a case-insensitive match
   (Spec/Query.v in_elems), so a case-sensitive string has no key.  A number stands unquoted and unescaped between
   the delimiters: it must end at the comma or parenthesis (inlist_num) and hold no backslash and no closing
   delimiter (rawtxt). *)
Definition in_val_okb (v : lval * bool) : bool :=
  match fst v with
  | LStr false _ => true
  | LNum txt => inlist_num txt && rawtxt txt
  | _ => false
  end.

Lemma in_after_end rec key : in_after rec key [c_rpar] = Some [key].
Proof. reflexivity. Qed.
Lemma in_after_more rec key r :
  in_after rec key (c_comma :: c_space :: r) = match rec r with Some l => Some (key :: l) | None => None end.
Proof. reflexivity. Qed.

Section InList.
Variable W : char -> bool.
Hypothesis HW : Wspec W.
Variable k : vbk.
Hypothesis Hq : k_qpat k = None.

Definition elem_text (v : lval) (pm : bool) : outcome str :=
  match v with LStr _ sv => value_str (vb k) pm sv | LNum txt => Ok txt | _ => Crash C_TypeError end.

Lemma in_texts_cons v pm r ts : in_texts (vb k) ((v, pm) :: r) = Ok ts ->
  exists t ts', ts = t :: ts' /\ elem_text v pm = Ok t /\ in_texts (vb k) r = Ok ts'.
Proof.
  cbn [in_texts]. intros H. apply obind_ok in H as [t [Ht H]]. apply obind_ok in H as [ts' [Hts [= <-]]]. eauto.
Qed.

Lemma elem_ok f v pm t : in_val_okb (v, pm) = true -> elem_text v pm = Ok t ->
  exists key, key_of_val f v = Some key /\ nors c_rq t = true /\
    forall fuel rest, stop (fun d => negb (N.eqb d c_comma || N.eqb d c_rpar)) rest = true ->
      in_elems (S fuel) f (t ++ rest) = in_after (in_elems fuel f) key rest.
Proof.
  unfold in_val_okb. cbn [fst].
  destruct v as [[|] sv|num| | | | | | | | | |]; try discriminate; cbn [elem_text]; intros Hok Ht.
  - eexists. split; [reflexivity|]. split; [exact (nors_value_str k _ _ _ Hq Ht)|]. intros fuel rest _.
    rewrite (value_str_vb k _ _ Hq) in Ht. apply quoted_vb in Ht as [c [Hc [-> Hr]]].
    cbn [app in_elems]. rewrite N.eqb_refl, <- app_assoc. cbn [app].
    rewrite (scan_nors c_dq c rest eq_refl (nors_convert c_dq _ _ eq_refl eq_refl eq_refl Hc)), Hr. reflexivity.
  - apply Ok_inj in Ht as <-. apply andb_true_iff in Hok as [Hnum Hraw].
    eexists. split; [reflexivity|]. split; [exact (rawtxt_nors _ Hraw)|]. intros fuel rest Hrest.
    destruct num as [|c num']; [discriminate|]. apply andb_true_iff in Hnum as [Hc Hall]. apply negb_true_iff in Hc.
    cbn [app in_elems]. rewrite Hc. change (c :: num' ++ rest) with ((c :: num') ++ rest).
    rewrite (span_stop _ _ _ Hall) by exact Hrest. reflexivity.
Qed.

Lemma in_list_ok f vals : vals <> [] -> forallb in_val_okb vals = true ->
  forall ts, in_texts (vb k) vals = Ok ts ->
  nors c_rq (join_texts (s ", ") ts) = true /\
  exists es, all_some (map (fun v => key_of_val f (fst v)) vals) = Some es /\
  forall fuel, (List.length (join_texts (s ", ") ts) < fuel)%nat ->
    in_elems fuel f (join_texts (s ", ") ts ++ [c_rpar]) = Some es.
Proof.
  induction vals as [|[v pm] r IH]; intros Hne Hall ts Hts; [congruence|].
  cbn [forallb] in Hall. apply andb_true_iff in Hall as [Hv Hr].
  apply in_texts_cons in Hts as [t [ts' [-> [Ht Hts']]]].
  destruct (elem_ok f v pm t Hv Ht) as [key [Hk [Hn Hstep]]].
  cbn [map all_some fst]. rewrite Hk.
  destruct r as [|[v2 pm2] r'].
  - apply Ok_inj in Hts' as <-. split; [exact Hn|]. exists [key]. split; [reflexivity|].
    intros [|fuel] Hf; [lia|]. cbn [join_texts]. rewrite Hstep by reflexivity. reflexivity.
  - destruct (IH ltac:(discriminate) Hr ts' Hts') as [Hn' [es [Hes Hfuel]]]. rewrite Hes.
    apply in_texts_cons in Hts' as [t2 [ts2 [-> _]]].
    change (join_texts (s ", ") (t :: t2 :: ts2)) with (t ++ s ", " ++ join_texts (s ", ") (t2 :: ts2)).
    split; [auto with nors|]. exists (key :: es). split; [reflexivity|].
    intros [|fuel] Hf; [lia|]. rewrite !app_length in Hf. change (List.length (s ", ")) with 2%nat in Hf.
    rewrite <- !app_assoc.
    change (s ", " ++ ?x) with (c_comma :: c_space :: x).
    rewrite Hstep, in_after_more, Hfuel by (reflexivity || lia). reflexivity.
Qed.

Theorem inlist_faithful disj f fo vals txt :
  fo_ok W f fo = true -> vals <> [] -> forallb in_val_okb vals = true ->
  render_in (vb k) disj f fo vals = Ok txt ->
  shapeb txt = true /\
  exists es, all_some (map (fun v => key_of_val f (fst v)) vals) = Some es /\ in_decode W txt = Some (disj, es).
Proof.
  intros Hf Hne Hall H. unfold render_in in H. cbn [vb l_in l_list_sep l_or_in_op l_and_in_op] in H.
  apply obind_ok in H as [ts [Ets H]].
  destruct (in_list_ok f vals Hne Hall ts Ets) as [HnJ [es [Hes Hfuel]]].
  set (J := join_texts (s ", ") ts) in *.
  set (op := if disj then s "in" else s "contains-all") in *.
  assert (Ht: txt = delim (qfield (vb k) fo f ++ c_space :: op ++ s " (" ++ J ++ [c_rpar]) [])
    by (apply Ok_inj in H as <-; flatten).
  subst txt. clear H. split.
  - apply shapeb_delim; [|reflexivity]. pose proof (nors_qfield W k _ _ Hf). destruct disj; auto 10 with nors.
  - exists es. split; [exact Hes|].
    unfold in_decode, delim. rewrite N.eqb_refl, (split_last_app _ []) by reflexivity.
    rewrite (fprefix_qfield W HW k fo f _ Hf) by now apply stop_special.
    set (R := c_space :: op ++ s " (" ++ J ++ [c_rpar]).
    assert (Hin : in_elems (S (List.length R)) f (J ++ [c_rpar]) = Some es).
    { apply Hfuel. subst R. cbn [List.length]. rewrite !app_length. lia. }
    destruct disj; subst R op.
    + change (prefixb (s " in (") _) with true. change (skipn 5 _) with (J ++ [c_rpar]). cbv iota.
      rewrite Hin. reflexivity.
    + change (prefixb (s " in (") _) with false. change (prefixb (s " contains-all (") _) with true.
      change (skipn 15 _) with (J ++ [c_rpar]). cbv iota. rewrite Hin. reflexivity.
Qed.
End InList.
