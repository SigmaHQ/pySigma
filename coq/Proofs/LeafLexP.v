(* Every leaf rendered by the verification backend is one lexical unit of the query language
   (theorem leaf_shape): together with lex_show and conv_sep_ok, a query assembled from rendered leaves
   is split back into exactly its operators, parentheses and leaf texts. *)
From Coq Require Import NArith List Bool.
From PS Require Import Base.Chars Base.Outcome Model.SString Model.StrOp Model.Leaf Spec.Atom Spec.Lex
  Proofs.CharsP Proofs.ConvertP Proofs.RxEscapeP Proofs.OutcomeP Proofs.LeafP.
Import ListNotations.
Open Scope N_scope.

(* no unescaped occurrence of q, and every backslash has a partner *)
Fixpoint nors (q : char) (x : str) : bool :=
  match x with
  | [] => true
  | c :: x' =>
      if N.eqb c c_bs then match x' with _ :: x'' => nors q x'' | [] => false end
      else if N.eqb c q then false else nors q x'
  end.

Lemma nors_app q a b : nors q a = true -> nors q (a ++ b) = nors q b.
Proof.
  induction a as [| |e a IH|c a Hc IH] using esc_ind; cbn [app nors]; rewrite ?N.eqb_refl, ?Hc; auto.
  - discriminate.
  - destruct (N.eqb c q); [discriminate|exact IH].
Qed.
Lemma nors_app2 q a b : nors q a = true -> nors q b = true -> nors q (a ++ b) = true.
Proof. intros Ha Hb. rewrite (nors_app q a b Ha). exact Hb. Qed.
Lemma nors_cons q c x : nors q [c] = true -> nors q x = true -> nors q (c :: x) = true.
Proof. exact (nors_app2 q [c] x). Qed.

Lemma scan_nors (q : char) (body rest : str) : N.eqb q c_bs = false -> nors q body = true ->
  scan_to q (body ++ q :: rest) = Some (body ++ [q], rest).
Proof.
  intros Hq. induction body as [| |e x IH|c x Hc IH] using esc_ind; cbn [app nors scan_to];
    rewrite ?N.eqb_refl, ?Hc, ?Hq; try discriminate; auto.
  - intros H. rewrite (IH H). reflexivity.
  - destruct (N.eqb c q); [discriminate|]. intros H. rewrite (IH H). reflexivity.
Qed.

Lemma nors_esc q cs x : mem q cs = true -> mem c_bs cs = true -> nors q (flat_map (esc1 c_bs cs) x) = true.
Proof.
  intros Hq Hb. induction x as [|c x IH]; [reflexivity|].
  cbn [flat_map]. unfold esc1 at 1. destruct (mem c cs) eqn:E; cbn [app nors].
  - rewrite N.eqb_refl. exact IH.
  - rewrite (mem_neq c c_bs cs E Hb), (mem_neq c q cs E Hq). exact IH.
Qed.

Lemma nors_qfield W k fo f : fo_ok W f fo = true -> nors c_rq (qfield (vb k) fo f) = true.
Proof.
  intros H. apply fo_ok_iff in H as [Hp _]. rewrite (qfield_vb k _ _ Hp).
  assert (Hf : nors c_rq (flat_map escf f) = true) by (apply nors_esc; reflexivity).
  destruct (snd fo); [|exact Hf]. apply nors_cons, nors_app2; auto.
Qed.

Lemma nors_convert q x c : mem q (escaped_chars vb_q) = true -> nors q [c_star] = true -> nors q [c_qm] = true ->
  convert vb_q x = Ok c -> nors q c = true.
Proof.
  intros Hm Hs Hu. revert c. induction x as [|[s0| | |n] x IH]; cbn [convert]; intros c H; try discriminate;
    [apply Ok_inj in H as <-; reflexivity| | |];
    apply obind_ok in H as [r [Hr H]]; apply Ok_inj in H as <-; apply nors_app2; auto.
  (* what is left is the plain part: conv_char vb_q escapes the characters of escaped_chars vb_q by a backslash *)
  exact (nors_esc q _ s0 Hm eq_refl).
Qed.

Lemma nors_value_str k pm x vs : k_qpat k = None -> value_str (vb k) pm x = Ok vs -> nors c_rq vs = true.
Proof.
  intros Hq H. rewrite (value_str_vb k _ _ Hq) in H. apply quoted_vb in H as [c [Hc [-> _]]].
  apply nors_cons, nors_app2; try reflexivity. exact (nors_convert c_rq x c eq_refl eq_refl eq_refl Hc).
Qed.

Lemma shapeb_delim body suffix : nors c_rq body = true -> no_boundary suffix = true ->
  shapeb (delim body suffix) = true.
Proof.
  intros Hb Hs. unfold shapeb, delim. rewrite N.eqb_refl. cbn [orb].
  rewrite (scan_nors c_rq body suffix eq_refl Hb). exact Hs.
Qed.

(* texts supplied from outside (numbers, networks, raw field names): no backslash, no closing delimiter *)
Definition rawtxt (x : str) : bool := forallb (fun c => negb (N.eqb c c_bs) && negb (N.eqb c c_rq)) x.
Lemma rawtxt_nors x : rawtxt x = true -> nors c_rq x = true.
Proof.
  induction x as [|c x IH]; intros H; [reflexivity|].
  cbn [rawtxt forallb] in H. rewrite !andb_true_iff, !negb_true_iff in H. destruct H as [[H1 H2] Hx].
  cbn [nors]. rewrite H1, H2. apply IH, Hx.
Qed.

(* What leaf_shape asks beyond val_ok.  Text that comes from outside is not escaped: between the delimiters (a
   comparison operand, a network, the field name, which the native CIDR template receives raw - D4) it must hold no
   backslash and no closing delimiter; outside them (a bare number after =, the operand after a timestamp part) no
   blank and no parenthesis.  Both are asked of all four number-like values. *)
Definition lex_ok (f : str) (v : lval) : bool :=
  match v with
  | LNum txt | LCmp _ txt | LCmpTs _ _ txt | LTs _ txt => rawtxt txt && no_boundary txt
  | LCidr net _ _ _ => rawtxt f && rawtxt net
  | _ => true
  end.

Lemma nors_str_lit cased neg op : nors c_rq (s (str_lit cased neg op)) = true.
Proof. destruct cased, neg, op; reflexivity. Qed.
Lemma nors_re_lit neg : nors c_rq (s (re_lit neg)) = true.
Proof. destruct neg; reflexivity. Qed.
Lemma nors_ff_lit sw ew : nors c_rq (s (ff_lit sw ew)) = true.
Proof. destruct sw, ew; reflexivity. Qed.
Lemma nors_cmp op : nors c_rq (vb_cmp op) = true.
Proof. destruct op; reflexivity. Qed.
Lemma nors_flags fi fm fs : nors c_rq (flags_str fi fm fs) = true.
Proof. destruct fi, fm, fs; reflexivity. Qed.
Lemma nors_rx rx : nors c_rq (rx_esc rx) = true.
Proof. apply nors_esc; reflexivity. Qed.

Create HintDb nors discriminated.
#[export] Hint Resolve nors_app2 nors_cons rawtxt_nors
  nors_str_lit nors_re_lit nors_ff_lit nors_cmp nors_flags nors_rx : nors.

Section Shape.
Variable W : char -> bool.
Hypothesis HW : Wspec W.
Variable k : vbk.
Hypothesis Hq : k_qpat k = None.

Lemma W_no_boundary f : forallb W f = true -> no_boundary f = true.
Proof.
  intros H. unfold no_boundary. rewrite forallb_forall in *. intros c Hc. specialize (H c Hc).
  unfold boundary. rewrite !(word_not_special W HW c) by (assumption || reflexivity). reflexivity.
Qed.

Lemma no_boundary_app a b : no_boundary (a ++ b) = no_boundary a && no_boundary b.
Proof. unfold no_boundary. apply forallb_app. Qed.

Lemma keyword_no_eq w : is_keyword w = true -> mem c_eq w = false.
Proof. unfold is_keyword. rewrite !orb_true_iff, !str_eqb_eq. intros [[->| ->]| ->]; reflexivity. Qed.

Lemma shapeb_bare fo f txt : fo_ok W f fo = true -> no_boundary txt = true ->
  shapeb (qfield (vb k) fo f ++ c_eq :: txt) = true.
Proof.
  intros Hf Hn. unfold shapeb. destruct (qfield_ok W HW k _ _ Hf) as [c r -> Ew|_].
  - pose proof Ew as Hc. apply andb_true_iff in Hc as [Hc _].
    cbn [app]. rewrite !(word_not_special W HW c) by (assumption || reflexivity). cbn [orb].
    change (c :: r ++ c_eq :: txt) with ((c :: r) ++ c_eq :: txt).
    rewrite no_boundary_app, (W_no_boundary _ Ew). change (no_boundary (c_eq :: txt)) with (no_boundary txt).
    rewrite Hn. destruct (is_keyword _) eqn:E; [|reflexivity].
    apply keyword_no_eq in E. rewrite mem_app in E. cbn [mem existsb] in E.
    rewrite N.eqb_refl, orb_true_r in E. discriminate.
  - cbn [app]. change (N.eqb c_sq c_lq || N.eqb c_sq c_sq) with true. cbv iota.
    change (if N.eqb c_sq c_lq then c_rq else c_sq) with c_sq. rewrite <- app_assoc. cbn [app].
    rewrite (scan_nors c_sq _ _ eq_refl) by (apply nors_esc; reflexivity). exact Hn.
Qed.

Lemma env_lookup_In key (e : env) p : lookup key e = Some p -> In p (map snd e).
Proof.
  induction e as [|[k' v] r IH]; cbn [lookup map snd]; [discriminate|].
  destruct (N.eqb key k'); [intros [= <-]; left; reflexivity|right; auto].
Qed.
Lemma lookup_part_ok part p : lookup part vb_parts = Some p -> nors c_rq p = true.
Proof.
  intros H. apply env_lookup_In in H.
  assert (F : forallb (nors c_rq) (map snd vb_parts) = true) by reflexivity.
  rewrite forallb_forall in F. exact (F p H).
Qed.

Theorem leaf_shape neg f fo pm v txt :
  fo_ok W f fo = true -> val_ok W f v = true -> lex_ok f v = true ->
  render_leaf (vb k) neg f fo pm v = Ok txt -> shapeb txt = true.
Proof.
  intros Hf Hv Hl. rewrite render_leaf_vb. pose proof (nors_qfield W k _ _ Hf) as Hnf.
  destruct v as [cased sv|num|b| |rx fi fm fs|net addr plen mask|op num|op part num|part num|b|f2 fo2 sw ew|];
    cbn [leaf_text lex_ok val_ok] in *; intros H; try apply andb_true_iff in Hl as [Hr Hn].
  - apply str_text_ok in H as [op [x [vs [_ [Hvs ->]]]]]. apply (nors_value_str k _ _ _ Hq) in Hvs.
    apply shapeb_delim; auto 6 with nors.
  - apply Ok_inj in H as <-. apply shapeb_bare; assumption.
  - apply Ok_inj in H as <-. apply shapeb_bare; [assumption|]. destruct b; reflexivity.
  - apply Ok_inj in H as <-. apply shapeb_delim; auto with nors.
  - apply Ok_inj in H as <-. apply shapeb_delim; auto 8 with nors.
  - destruct (k_cidr k); [|discriminate]. apply Ok_inj in H as <-.
    apply shapeb_delim; [|reflexivity]. destruct neg; auto 12 with nors.
  - apply Ok_inj in H as <-. apply shapeb_delim; auto 6 with nors.
  - destruct (lookup part vb_parts) as [p|] eqn:Ep; [|discriminate]. apply lookup_part_ok in Ep.
    apply Ok_inj in H as <-. apply shapeb_delim; [auto 6 with nors|].
    rewrite no_boundary_app, Hn. destruct op; reflexivity.
  - destruct (lookup part vb_parts) as [p|] eqn:Ep; [|discriminate]. apply lookup_part_ok in Ep.
    apply Ok_inj in H as <-. apply shapeb_delim; [auto 6 with nors|exact Hn].
  - destruct (b || k_nexists k); [|discriminate]. apply Ok_inj in H as <-.
    apply shapeb_delim; [|reflexivity]. destruct b; auto 8 with nors.
  - apply Ok_inj in H as <-. apply (nors_qfield W k) in Hv. apply shapeb_delim; auto 6 with nors.
  - discriminate.
Qed.
End Shape.
