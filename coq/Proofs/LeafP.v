(* The verification backend's rendering of a leaf, read back by the target language's atom reader,
   says what the source value says (theorem leaf_faithful), for every field name, value and flag set. *)
From Coq Require Import NArith List Bool String.
From PS Require Import Base.Chars Base.Outcome Model.SString Model.StrOp Model.FieldName Model.Leaf Spec.Items
  Spec.Atom Proofs.CharsP Proofs.AtomP Proofs.ConvertP Proofs.QuoteP Proofs.StrOpP Proofs.RxEscapeP Proofs.OutcomeP.
Import ListNotations.
Open Scope N_scope.

(* simpl evaluates comparisons of two literals and leaves those with a variable as they are *)
Local Arguments N.eqb : simpl nomatch.

Section WithW.
Variable W : char -> bool.
Hypothesis HW : Wspec W.

Lemma W_special c : mem c specials = true -> W c = false.
Proof.
  intros Hc. apply mem_In in Hc. destruct HW as [_ H]. rewrite forallb_forall in H.
  apply negb_true_iff, H, Hc.
Qed.
Lemma W_lt : W 60 = false. Proof. apply W_special. reflexivity. Qed.
Lemma W_gt : W 62 = false. Proof. apply W_special. reflexivity. Qed.

Lemma word_not_special c d : W c = true -> mem d specials = true -> N.eqb c d = false.
Proof. intros Hc Hd. apply N.eqb_neq. intros ->. rewrite (W_special d Hd) in Hc. discriminate. Qed.

Definition escf : char -> str := esc1 c_bs [c_bs; c_rq; c_sq].

(* FieldNameP.field_roundtrip (C05) reads the same escaping back with the model's own reader fread; here it is
   written as a flat_map, for the target language's reader fq_read *)
Lemma escape_from_escf ps f : forall i, pos_ok ps i f = true ->
  escape_from vb_f [c_bs] (fun j => existsb (Nat.eqb j) ps) i f = flat_map escf f.
Proof.
  induction f as [|c f IH]; intros i H; [reflexivity|].
  cbn [pos_ok] in H. apply andb_true_iff in H as [Hc Hr].
  cbn [escape_from flat_map]. rewrite (IH _ Hr). generalize (flat_map escf f). intros r.
  unfold escf, esc1, esc_pos. cbn [vb_f f_escape_quote f_quote mem existsb andb].
  destruct (N.eqb c c_bs), (N.eqb c c_rq), (N.eqb c c_sq); cbn [orb negb] in Hc |- *;
    try apply negb_true_iff in Hc; rewrite ?Hc, ?orb_true_r; reflexivity.
Qed.

Lemma fq_read_escf f rest : fq_read (flat_map escf f ++ c_sq :: rest) = Some (f, rest).
Proof.
  induction f as [|c f IH]; [reflexivity|].
  cbn [flat_map]. unfold escf at 1, esc1. destruct (mem c _) eqn:E; cbn [app fq_read].
  - simpl (N.eqb c_bs c_bs). rewrite IH. reflexivity.
  - rewrite (mem_neq c c_bs _ E), (mem_neq c c_sq _ E), IH; reflexivity.
Qed.

Lemma escf_word f : forallb W f = true -> flat_map escf f = f.
Proof.
  induction f as [|c f IH]; cbn [forallb flat_map]; intros H; [reflexivity|].
  apply andb_true_iff in H as [Hc Hf]. rewrite (IH Hf).
  unfold escf, esc1. cbn [mem existsb]. rewrite !(word_not_special c) by (assumption || reflexivity).
  reflexivity.
Qed.

Lemma qfield_vb k fo f : pos_ok (fst fo) 0 f = true ->
  qfield (vb k) fo f = if snd fo then c_sq :: flat_map escf f ++ [c_sq] else flat_map escf f.
Proof.
  intros H. unfold qfield, escape_and_quote_field. cbn [vb l_f vb_f f_escape f_quote].
  change {| f_quote := Some c_sq; f_escape := Some [c_bs]; f_escape_quote := true |} with vb_f.
  rewrite (escape_from_escf _ _ _ H). reflexivity.
Qed.

Inductive qfield_form (f : str) : str -> bool -> Prop :=
| qf_word c r : f = c :: r -> forallb W f = true -> qfield_form f f false
| qf_quoted : wordy W f = false -> qfield_form f (c_sq :: flat_map escf f ++ [c_sq]) true.

Lemma fo_ok_iff f fo : fo_ok W f fo = true <-> pos_ok (fst fo) 0 f = true /\ snd fo = negb (wordy W f).
Proof. unfold fo_ok. rewrite andb_true_iff, eqb_true_iff. reflexivity. Qed.

Lemma qfield_ok k fo f : fo_ok W f fo = true -> qfield_form f (qfield (vb k) fo f) (snd fo).
Proof.
  intros H. apply fo_ok_iff in H as [Hp Hq].
  rewrite (qfield_vb _ _ _ Hp), Hq. destruct (wordy W f) eqn:Ew; [|constructor; exact Ew].
  destruct f as [|c r]; [discriminate|]. cbn [negb]. rewrite (escf_word _ Ew). exact (qf_word _ c r eq_refl Ew).
Qed.

Lemma stop_special e r : mem e specials = true -> stop W (e :: r) = true.
Proof. intros H. cbn [stop]. rewrite (W_special e H). reflexivity. Qed.

Lemma fprefix_qfield k fo f rest : fo_ok W f fo = true -> stop W rest = true ->
  fprefix W (qfield (vb k) fo f ++ rest) = Some (f, snd fo, rest).
Proof.
  intros H Hs. unfold fprefix. destruct (qfield_ok k _ _ H) as [c r -> Ew|_].
  - cbn [app]. rewrite (word_not_special c c_sq) by (reflexivity || apply andb_true_iff in Ew; apply Ew).
    change (c :: r ++ rest) with ((c :: r) ++ rest). rewrite (span_stop _ _ _ Ew Hs). reflexivity.
  - cbn [app]. simpl (N.eqb c_sq c_sq). rewrite <- app_assoc. cbn [app]. rewrite fq_read_escf. reflexivity.
Qed.

Lemma qfield_head k fo f : fo_ok W f fo = true ->
  exists c q, qfield (vb k) fo f = c :: q /\ N.eqb c c_bang = false /\ N.eqb c c_lq = false.
Proof.
  intros H. destruct (qfield_ok k _ _ H) as [c r -> Ew|_].
  - apply andb_true_iff in Ew as [Hc _].
    exists c, r. rewrite !(word_not_special c) by (assumption || reflexivity). auto.
  - eexists _, _. repeat split.
Qed.

End WithW.

Definition delim (body suffix : str) : str := c_lq :: body ++ c_rq :: suffix.

Lemma split_last_none x : mem c_rq x = false -> split_last_rq x = None.
Proof.
  induction x as [|c x IH]; [reflexivity|]. cbn [mem existsb split_last_rq]. intros H.
  apply orb_false_iff in H as [Hc Hx]. rewrite (IH Hx), N.eqb_sym, Hc. reflexivity.
Qed.
Lemma split_last_app body suffix : mem c_rq suffix = false ->
  split_last_rq (body ++ c_rq :: suffix) = Some (body, suffix).
Proof.
  intros H. induction body as [|c b IH]; cbn [app split_last_rq].
  - rewrite (split_last_none _ H). reflexivity.
  - rewrite IH. reflexivity.
Qed.

Lemma atom_delim W body suffix : mem c_rq suffix = false ->
  atom_decode W (delim body suffix) = match suffix with [] => dec_body W body | _ => dec_ts W body suffix end.
Proof.
  intros H. unfold delim, atom_decode. simpl (N.eqb c_lq c_lq). cbv iota.
  rewrite (split_last_app _ _ H). destruct suffix; reflexivity.
Qed.

Lemma value_str_vb k pm x : k_qpat k = None -> value_str (vb k) pm x = convert_quoted vb_e c_dq x.
Proof.
  intros Hq. unfold value_str, decide_quoting. cbn [vb l_quote l_quote_pat]. rewrite Hq. reflexivity.
Qed.

Lemma wf_quoting_vb : wf_quoting vb_e c_dq = true.
Proof. vm_compute. reflexivity. Qed.

Lemma quoted_vb x vs : convert_quoted vb_e c_dq x = Ok vs ->
  exists c, convert vb_q x = Ok c /\ vs = c_dq :: c ++ [c_dq] /\ str_read vs = Some (items x).
Proof.
  intros H. pose proof (quoted_decode vb_e c_dq x vs wf_quoting_vb H) as Q. rewrite filter_items_none in Q by reflexivity.
  apply obind_ok in H as [c [Hc [= <-]]]. eauto.
Qed.

Definition rx_esc : str -> str := flat_map (esc1 c_bs rx_escaped).

Lemma value_re_vb k rx fi fm fs : value_re (vb k) rx fi fm fs = rx_esc rx.
Proof. exact (rx_escape_single c_bs [c_slash; c_lq; c_rq] rx). Qed.

Lemma rx_read_esc rx rest : rx_read (rx_esc rx ++ c_slash :: rest) = Some (rx, rest).
Proof.
  induction rx as [|c rx IH]; [reflexivity|].
  change (rx_esc (c :: rx)) with (esc1 c_bs rx_escaped c ++ rx_esc rx).
  unfold esc1. destruct (mem c rx_escaped) eqn:E; cbn [app rx_read].
  - simpl (N.eqb c_bs c_bs). cbv iota. rewrite E, IH. reflexivity.
  - rewrite (mem_neq c c_bs _ E), (mem_neq c c_slash _ E), IH; reflexivity.
Qed.

Lemma flags_read_str fi fm fs : flags_read (flags_str fi fm fs) = Some (fi, fm, fs).
Proof. destruct fi, fm, fs; reflexivity. Qed.

Lemma flag_env_vb k fi fm fs :
  flag_env (vb k) fi fm fs =
  Ok [(K_flag_i, if fi then [105] else []); (K_flag_m, if fm then [109] else []); (K_flag_s, if fs then [115] else [])].
Proof. destruct fi, fm, fs; reflexivity. Qed.

Lemma apattern_pattern o l : apattern o l = pattern o l.
Proof. destruct o; reflexivity. Qed.

Lemma str_op_accept K v o x : str_op K v = (o, Ok x) ->
  items_eqb (norm (apattern o (items x))) (norm (items v)) = true.
Proof.
  intros H. apply items_eqb_eq. rewrite apattern_pattern.
  destruct (str_op_pattern K v o x H) as [->|[-> [-> ->]]]; reflexivity.
Qed.

Lemma norm_sem l : forall subj, wild_match (norm l) subj = wild_match l subj.
Proof.
  induction l as [|i l IH]; [reflexivity|].
  destruct i; try (intros [|x subj]; cbn [norm wild_match]; rewrite ?IH; reflexivity).
  destruct l as [|[] l']; try (apply wild_multi_ext, IH).
  intros subj. change (norm (Multi :: Multi :: l')) with (norm (Multi :: l')).
  rewrite IH, wild_multi_multi. reflexivity.
Qed.

Definition str_lit (cased neg : bool) (op : sop) : string :=
  match cased, op with
  | false, OpStartswith => if neg then " !startswith " else " startswith "
  | false, OpEndswith => if neg then " !endswith " else " endswith "
  | false, OpContains => if neg then " !contains " else " contains "
  | false, OpWildMatch => " match "
  | false, OpEq => if neg then "!=" else "="
  | true, OpStartswith => if neg then " !cstartswith " else " cstartswith "
  | true, OpEndswith => if neg then " !cendswith " else " cendswith "
  | true, OpContains => if neg then " !ccontains " else " ccontains "
  | true, _ => " cmatch "
  end%string.
(* does the negated-template context change the rendering? *)
Definition swapped (cased : bool) (op : sop) : bool :=
  match cased, op with
  | false, OpWildMatch => false
  | true, OpEq | true, OpWildMatch => false
  | _, _ => true
  end.
(* str_lit true OpWildMatch is the literal of OpEq, hence the premise; the case does not arise, a case-sensitive
   string having no match template (oc_of: has_wm = false) *)
Lemma find_str cased neg op v : (cased = true -> op <> OpWildMatch) ->
  find_op optable (s (str_lit cased neg op) ++ c_dq :: v) = Some (KStr (neg && swapped cased op) cased op, c_dq :: v).
Proof.
  intros H. destruct cased, neg, op; try reflexivity; exfalso; apply H; reflexivity.
Qed.
Lemma str_lit_unswapped cased op : swapped cased op = false -> str_lit cased true op = str_lit cased false op.
Proof. destruct cased, op; (reflexivity || discriminate). Qed.

Definition re_lit (neg : bool) : string := if neg then "!~/" else "=~/".
Lemma find_re neg x : find_op optable (s (re_lit neg) ++ x) = Some (KRe neg, x).
Proof. destruct neg; reflexivity. Qed.

Definition ff_lit (sw ew : bool) : string :=
  if sw && ew then " fcontains " else if sw then " fstartswith " else if ew then " fendswith " else "==".
Lemma find_ff sw ew x : find_op optable (s (ff_lit sw ew) ++ x) = Some (KFF sw ew, x).
Proof. destruct sw, ew; reflexivity. Qed.

(* a number does not begin like the tail of a longer comparison operator *)
Lemma find_cmp op c t : numtxt (c :: t) = true ->
  find_op cmptable (vb_cmp op ++ c :: t) = Some (KCmp op, c :: t).
Proof.
  cbn [numtxt]. unfold c_eq. rewrite !andb_true_iff, !negb_true_iff, !(N.eqb_sym c). intros [[H1 H2] _].
  destruct op; simpl; rewrite ?H1, ?H2; reflexivity.
Qed.
Lemma optable_cmp op x : find_op optable (vb_cmp op ++ x) = find_op cmptable (vb_cmp op ++ x).
Proof. destruct op; reflexivity. Qed.

Definition ophead (lit : str) : bool :=
  match lit with e :: _ => mem e specials && negb (N.eqb e c_lpar) | [] => false end.

Lemma is_some_opt (b : bool) (x : tpl) : is_some (opt b x) = b.
Proof. destruct b; reflexivity. Qed.

Lemma fmt_fv op qf vs e :
  fmt (t_fv op) ((K_field, qf) :: (K_value, vs) :: e) = Ok (delim (qf ++ s op ++ vs) []).
Proof. unfold delim. rewrite <- !app_assoc. reflexivity. Qed.

(* both sides as right-nested concatenations *)
Ltac flatten := unfold delim, flags_str; repeat progress (cbn [app]; rewrite <- ?app_assoc); reflexivity.

Section Text.
Variable k : vbk.

Definition oc_of (cased : bool) : opcfg :=
  {| has_sw := if cased then k_cs k else k_sw k; has_ew := if cased then k_cs k else k_ew k;
     has_ct := if cased then k_cs k else k_ct k; has_wm := if cased then false else k_wm k;
     sw_special := k_special k; ew_special := k_special k; ct_special := k_special k |}.

(* render_str and render_leaf (Model/Leaf.v) on the configuration vb k with the templates formatted: the text is
   field=token, or a delimited body - followed, for a timestamp part, by the comparison *)
Definition str_text (neg cased : bool) (qf : str) (pm : sop -> bool) (sv : sstring) : outcome str :=
  let '(op, val) := str_op (oc_of cased) sv in
  obind val (fun x => obind (value_str (vb k) (pm op) x) (fun vs => obind (value_as_regex (vb k) x) (fun _ =>
    Ok (delim (qf ++ s (str_lit cased neg op) ++ vs) [])))).

Lemma render_str_vb neg cased qf pm sv : render_str (vb k) neg cased qf pm sv = str_text neg cased qf pm sv.
Proof.
  unfold render_str, str_text.
  (* the operator is chosen under oc_of cased, in either context *)
  set (oc := Build_opcfg _ _ _ _ _ _ _).
  replace oc with (oc_of cased)
    by (subst oc; destruct cased, neg; cbn -[opt is_some]; rewrite ?is_some_opt; reflexivity).
  destruct (str_op (oc_of cased) sv) as [op val] eqn:E. apply str_op_has in E.
  (* and has a template: «{field}LIT{value}» with the literal of the operator and the context *)
  set (t := match op with OpStartswith => _ | OpEndswith => _ | OpContains => _ | OpWildMatch => _ | OpEq => _ end).
  replace t with (Some (t_fv (str_lit cased neg op)))
    by (subst t; destruct cased, neg, op; try discriminate E; cbn in E |- *; try rewrite E; reflexivity).
  do 3 (apply obind_ext; intro). apply fmt_fv.
Qed.

Lemma str_text_ok neg cased qf pm sv txt : str_text neg cased qf pm sv = Ok txt ->
  exists op x vs, str_op (oc_of cased) sv = (op, Ok x) /\ value_str (vb k) (pm op) x = Ok vs /\
    txt = delim (qf ++ s (str_lit cased neg op) ++ vs) [].
Proof.
  unfold str_text. destruct (str_op _ sv) as [op val]. intros H.
  apply obind_ok in H as [x [-> H]]. apply obind_ok in H as [vs [Hvs H]]. apply obind_ok in H as [_ [_ [= <-]]].
  eauto 6.
Qed.

Definition leaf_text (neg : bool) (f : str) (fo : foracle) (pm : sop -> bool) (v : lval) : outcome str :=
  let qf := qfield (vb k) fo f in
  match v with
  | LStr cased sv => str_text neg cased qf pm sv
  | LNum txt => Ok (qf ++ c_eq :: txt)
  | LBool b => Ok (qf ++ c_eq :: s (if b then "true" else "false"))
  | LNull => Ok (delim (qf ++ s " is null") [])
  | LRe rx fi fm fs => Ok (delim (qf ++ s (re_lit neg) ++ rx_esc rx ++ c_slash :: flags_str fi fm fs) [])
  | LCidr net _ _ _ =>
      let call := s "cidr" ++ c_lpar :: f ++ c_comma :: net ++ [c_rpar] in
      if k_cidr k then Ok (delim (if neg then c_bang :: call else call) []) else Crash C_Structural
  | LCmp op txt => Ok (delim (qf ++ vb_cmp op ++ txt) [])
  | LCmpTs op part txt =>
      match lookup part vb_parts with
      | Some p => Ok (delim (qf ++ c_dot :: p) (vb_cmp op ++ txt))
      | None => Crash C_KeyError
      end
  | LTs part txt =>
      match lookup part vb_parts with
      | Some p => Ok (delim (qf ++ c_dot :: p) (c_eq :: txt))
      | None => Crash C_KeyError
      end
  | LExists b =>
      if b || k_nexists k then Ok (delim (s (if b then "exists" else "notexists") ++ c_lpar :: qf ++ [c_rpar]) [])
      else Crash C_Structural
  | LFieldRef f2 fo2 sw ew => Ok (delim (qf ++ s (ff_lit sw ew) ++ qfield (vb k) fo2 f2) [])
  | LOther => Crash C_TypeError
  end.

Lemma render_leaf_vb neg f fo pm v : render_leaf (vb k) neg f fo pm v = leaf_text neg f fo pm v.
Proof.
  destruct v as [cased sv|num|b| |rx fi fm fs|net addr plen mask|op num|op part num|part num|b|f2 fo2 sw ew|];
    cbn [render_leaf leaf_text vb l_eq_token l_true l_false l_null l_re l_nre l_cidr l_ncidr l_cmp l_cmp_ops
         l_ts l_ts_map l_exists l_nexists l_ff l_ffsw l_ffew l_ffct l_ff_q1 l_ff_q2 with_tpl ts_usable].
  - apply render_str_vb.
  - reflexivity.
  - destruct b; reflexivity.
  - flatten.
  - rewrite flag_env_vb, value_re_vb. destruct neg; flatten.
  - destruct (k_cidr k), neg; flatten.
  - flatten.
  - destruct (lookup part vb_parts); cbn -[qfield]; flatten.
  - destruct (lookup part vb_parts); cbn -[qfield]; flatten.
  - destruct b; [|destruct (k_nexists k)]; flatten.
  - destruct sw, ew; flatten.
  - reflexivity.
Qed.

(* The flag negatable of a leaf (Model/Backend.v, CAtom) for the verification backend: does the value have a
   template of its own for the negated context? *)
Definition negatable (v : lval) : bool :=
  match v with
  | LStr cased sv => swapped cased (fst (str_op (oc_of cased) sv))
  | LRe _ _ _ _ | LCidr _ _ _ _ => true
  | _ => false
  end.
Lemma plain_text f fo pm v : negatable v = false ->
  render_leaf (vb k) true f fo pm v = render_leaf (vb k) false f fo pm v.
Proof.
  rewrite !render_leaf_vb. destruct v; cbn [negatable leaf_text]; intros Hn; try discriminate Hn; try reflexivity.
  unfold str_text. destruct (str_op _ _) as [op val]. cbn [fst] in Hn.
  rewrite (str_lit_unswapped _ _ Hn). reflexivity.
Qed.
End Text.

Lemma assoc3 {A} (a b c d : list A) : a ++ b ++ c ++ d = (a ++ b ++ c) ++ d.
Proof. rewrite <- !app_assoc. reflexivity. Qed.
Lemma assoc4 {A} (a b c d e : list A) : a ++ b ++ c ++ d ++ e = (a ++ b ++ c ++ d) ++ e.
Proof. rewrite <- !app_assoc. reflexivity. Qed.

Lemma str_eqb_refl' x : str_eqb x x = true. Proof. apply str_eqb_refl. Qed.

Section Decode.
Variable W : char -> bool.
Hypothesis HW : Wspec W.
Variable k : vbk.
Hypothesis Hq : k_qpat k = None.

Lemma op_decode fo f x : fo_ok W f fo = true -> ophead x = true ->
  atom_decode W (delim (qfield (vb k) fo f ++ x) []) = dec_op W f x.
Proof.
  intros Hf Hx. destruct x as [|e r]; [discriminate|]. apply andb_true_iff in Hx as [He Hp].
  rewrite atom_delim by reflexivity. unfold dec_body.
  destruct (qfield_head W HW k _ _ Hf) as [c [q [Hc [Hb _]]]]. rewrite Hc at 1. cbn [app]. rewrite Hb.
  rewrite (fprefix_qfield W HW k _ _ _ Hf) by apply (stop_special W HW), He.
  apply negb_true_iff in Hp. rewrite Hp. reflexivity.
Qed.

Lemma bare_decode fo f c t : fo_ok W f fo = true ->
  atom_decode W (qfield (vb k) fo f ++ c_eq :: c :: t) = Some {| a_neg := false; a_field := f; a_pred := ATok (c :: t) |}.
Proof.
  intros Hf. unfold atom_decode.
  destruct (qfield_head W HW k _ _ Hf) as [d [q [Hd [_ Hl]]]]. rewrite Hd at 1. cbn [app]. rewrite Hl.
  unfold dec_bare. rewrite (fprefix_qfield W HW k _ _ _ Hf) by now apply stop_special.
  reflexivity.
Qed.

Lemma call_decode w rest : wordy ascii_word w = true ->
  dec_body W (w ++ c_lpar :: rest) =
    if str_eqb w (s "cidr") then dec_cidr false rest
    else if str_eqb w (s "exists") then dec_exists W false rest
    else if str_eqb w (s "notexists") then dec_exists W true rest else None.
Proof.
  destruct w as [|c n]; [discriminate|]. cbn [wordy]. intros Hw.
  assert (Hn : forallb W (c :: n) = true).
  { rewrite forallb_forall in *. intros x Hx. apply HW, Hw, Hx. }
  pose proof Hn as Hc. apply andb_true_iff in Hc as [Hc _].
  unfold dec_body, fprefix. cbn [app]. rewrite !(word_not_special W HW c) by (assumption || reflexivity).
  change (c :: n ++ c_lpar :: rest) with ((c :: n) ++ c_lpar :: rest).
  rewrite (span_stop W _ _ Hn) by (apply (stop_special W HW); reflexivity). reflexivity.
Qed.

Lemma exists_decode neg fo f : fo_ok W f fo = true ->
  dec_exists W neg (qfield (vb k) fo f ++ [c_rpar]) = Some {| a_neg := neg; a_field := f; a_pred := AExists |}.
Proof.
  intros Hf. unfold dec_exists.
  rewrite (fprefix_qfield W HW k _ _ _ Hf) by now apply stop_special. reflexivity.
Qed.

Lemma dec_cidr_ok neg f net : mem c_comma f = false ->
  dec_cidr neg (f ++ c_comma :: net ++ [c_rpar]) = Some {| a_neg := neg; a_field := f; a_pred := ACidr net |}.
Proof.
  intros Hm. unfold dec_cidr. rewrite (span_stop (fun c => negb (N.eqb c c_comma))).
  - rewrite rev_unit. simpl (N.eqb c_rpar c_rpar). cbv iota. rewrite rev_involutive. reflexivity.
  - apply forallb_forall. intros c Hc. apply negb_true_iff, N.eqb_neq. intros ->.
    apply mem_In in Hc. congruence.
  - reflexivity.
Qed.

Lemma acceptb_iff neg f v a :
  acceptb neg f v a = true <-> a_field a = f /\ pred_ok v (a_pred a) = true /\ a_neg a = polarity v neg.
Proof. unfold acceptb. rewrite !andb_true_iff, str_eqb_eq, eqb_true_iff. tauto. Qed.

Lemma accept_intro neg f v p : pred_ok v p = true ->
  acceptb neg f v {| a_neg := polarity v neg; a_field := f; a_pred := p |} = true.
Proof. intros H. apply acceptb_iff. auto. Qed.

Theorem leaf_decodes neg f fo pm v txt :
  fo_ok W f fo = true -> val_ok W f v = true -> render_leaf (vb k) neg f fo pm v = Ok txt ->
  exists p, pred_ok v p = true /\
    atom_decode W txt = Some {| a_neg := polarity v (negatable k v && neg); a_field := f; a_pred := p |}.
Proof.
  intros Hf Hv. rewrite render_leaf_vb.
  destruct v as [cased sv|num|b| |rx fi fm fs|net addr plen mask|op num|op part num|part num|b|f2 fo2 sw ew|];
    cbn [leaf_text val_ok polarity negatable andb] in *; intros H.
  - apply str_text_ok in H as [op [x [vs [E [Hvs ->]]]]]. rewrite E. cbn [fst].
    rewrite (value_str_vb k _ _ Hq) in Hvs. apply quoted_vb in Hvs as [c [_ [-> Hr]]].
    exists (AStr cased op (items x)). split.
    + cbn [pred_ok]. rewrite eqb_reflx. exact (str_op_accept _ _ _ _ E).
    + rewrite op_decode by (assumption || (destruct cased, neg, op; reflexivity)).
      unfold dec_op. cbn [app]. rewrite find_str, Hr, andb_comm; [reflexivity|].
      intros -> ->. apply str_op_has in E. discriminate.
  - apply Ok_inj in H as <-. destruct num as [|c t]; [discriminate|].
    exists (ATok (c :: t)). split; [apply str_eqb_refl|apply bare_decode, Hf].
  - apply Ok_inj in H as <-. exists (ATok (s (if b then "true" else "false"))).
    split; destruct b; (reflexivity || apply bare_decode, Hf).
  - apply Ok_inj in H as <-. exists ANull. split; [reflexivity|].
    rewrite op_decode by (assumption || reflexivity). reflexivity.
  - apply Ok_inj in H as <-. exists (ARe rx fi fm fs).
    split; [cbn [pred_ok]; rewrite str_eqb_refl, !eqb_reflx; reflexivity|].
    rewrite op_decode by (assumption || (destruct neg; reflexivity)).
    unfold dec_op. rewrite find_re, rx_read_esc, flags_read_str. reflexivity.
  - (* CIDR with the native template: the raw field name *)
    destruct (k_cidr k); [|discriminate]. apply Ok_inj in H as <-. apply negb_true_iff in Hv.
    exists (ACidr net). split; [apply str_eqb_refl|].
    rewrite atom_delim by reflexivity. destruct neg; [|rewrite call_decode by reflexivity]; apply dec_cidr_ok, Hv.
  - apply Ok_inj in H as <-. destruct num as [|c t]; [discriminate|].
    exists (ACmp op (c :: t)). split; [cbn [pred_ok]; rewrite cmpop_eqb_refl; apply str_eqb_refl|].
    rewrite op_decode by (assumption || (destruct op; reflexivity)).
    unfold dec_op. rewrite optable_cmp, (find_cmp _ _ _ Hv). reflexivity.
  - rewrite !andb_true_iff, negb_true_iff in Hv. destruct Hv as [[Hn Hr] _].
    destruct (lookup part vb_parts) as [p|] eqn:Ep; [|discriminate]. apply Ok_inj in H as <-.
    destruct num as [|c t]; [discriminate|].
    exists (ACmpTs op p (c :: t)).
    split; [cbn [pred_ok]; unfold part_name; rewrite Ep, cmpop_eqb_refl, !str_eqb_refl; reflexivity|].
    rewrite atom_delim by (rewrite mem_app, Hr; destruct op; reflexivity).
    unfold dec_ts. rewrite (fprefix_qfield W HW k _ _ _ Hf) by now apply stop_special.
    rewrite (find_cmp _ _ _ Hn). destruct op; reflexivity.
  - rewrite !andb_true_iff, negb_true_iff in Hv. destruct Hv as [[Hn Hr] _].
    destruct (lookup part vb_parts) as [p|] eqn:Ep; [|discriminate]. apply Ok_inj in H as <-.
    destruct num as [|c t]; [discriminate|].
    exists (ATs p (c :: t)).
    split; [cbn [pred_ok]; unfold part_name; rewrite Ep, !str_eqb_refl; reflexivity|].
    rewrite atom_delim by exact Hr.
    unfold dec_ts. rewrite (fprefix_qfield W HW k _ _ _ Hf) by now apply stop_special. reflexivity.
  - destruct (b || k_nexists k); [|discriminate]. apply Ok_inj in H as <-.
    exists AExists. split; [reflexivity|].
    rewrite atom_delim, call_decode by (destruct b; reflexivity). destruct b; apply exists_decode, Hf.
  - apply Ok_inj in H as <-. exists (AFieldRef f2 sw ew).
    split; [cbn [pred_ok]; rewrite str_eqb_refl, !eqb_reflx; reflexivity|].
    rewrite op_decode by (assumption || (destruct sw, ew; reflexivity)).
    unfold dec_op. rewrite find_ff, <- (app_nil_r (qfield _ fo2 f2)), (fprefix_qfield W HW k _ _ _ Hv) by reflexivity.
    reflexivity.
  - discriminate.
Qed.

Theorem leaf_faithful neg f fo pm v txt :
  fo_ok W f fo = true -> val_ok W f v = true ->
  render_leaf (vb k) neg f fo pm v = Ok txt ->
  exists a, atom_decode W txt = Some a /\
    (acceptb neg f v a = true \/ (neg = true /\ render_leaf (vb k) false f fo pm v = Ok txt)).
Proof.
  intros Hf Hv H. destruct (leaf_decodes _ _ _ _ _ _ Hf Hv H) as [p [Hp Hd]].
  eexists. split; [exact Hd|]. destruct (negatable k v) eqn:En; [|destruct neg].
  - left. apply accept_intro, Hp.
  - right. split; [reflexivity|]. rewrite <- (plain_text k _ _ _ _ En). exact H.
  - left. apply accept_intro, Hp.
Qed.

(* values without a field: the field position holds the token _ *)
Definition fo_us : foracle := ([], false).
Lemma fo_ok_us : fo_ok W [c_us] fo_us = true.
Proof.
  unfold fo_ok, fo_us. cbn [fst snd pos_ok wordy forallb].
  destruct HW as [Ha _]. rewrite (Ha c_us eq_refl). reflexivity.
Qed.

Lemma ub_decode x : ophead x = true -> atom_decode W (delim (c_us :: x) []) = dec_op W [c_us] x.
Proof. exact (op_decode fo_us [c_us] x fo_ok_us). Qed.

Theorem leaf_unbound_faithful pm v txt :
  val_ok W [c_us] v = true -> (match v with LStr cased _ => cased = false | _ => True end) ->
  render_val (vb k) pm v = Ok txt ->
  exists a, atom_decode W txt = Some a /\ acceptb false [c_us] v a = true.
Proof.
  intros Hv Hc H.
  destruct v as [cased sv|num| | |rx fi fm fs| | | | | | |]; try discriminate;
    cbn [render_val vb l_ub_str l_ub_num l_ub_re with_tpl] in H.
  - subst cased. apply obind_ok in H as [vs [Hvs H]]. apply obind_ok in H as [rs [_ H]].
    rewrite (value_str_vb k _ _ Hq) in Hvs. apply quoted_vb in Hvs as [c [_ [-> Hr]]].
    assert (E : txt = delim (c_us :: s (str_lit false false OpEq) ++ c_dq :: c ++ [c_dq]) [])
      by (apply Ok_inj in H as <-; flatten).
    exists {| a_neg := false; a_field := [c_us]; a_pred := AStr false OpEq (items sv) |}. split.
    + rewrite E, ub_decode by reflexivity. unfold dec_op. rewrite find_str, Hr by discriminate. reflexivity.
    + apply (accept_intro false). cbn [pred_ok apattern]. apply items_eqb_refl.
  - destruct num as [|c t]; [discriminate|].
    assert (E : txt = delim (c_us :: s " num " ++ c :: t) []) by (apply Ok_inj in H as <-; flatten).
    exists {| a_neg := false; a_field := [c_us]; a_pred := ATok (c :: t) |}. split.
    + rewrite E, ub_decode by reflexivity. reflexivity.
    + apply (accept_intro false), str_eqb_refl.
  - rewrite flag_env_vb, value_re_vb in H.
    assert (E : txt = delim (c_us :: s (re_lit false) ++ rx_esc rx ++ c_slash :: flags_str fi fm fs) [])
      by (apply Ok_inj in H as <-; flatten).
    exists {| a_neg := false; a_field := [c_us]; a_pred := ARe rx fi fm fs |}. split.
    + rewrite E, ub_decode by reflexivity.
      unfold dec_op. rewrite find_re, rx_read_esc, flags_read_str. reflexivity.
    + apply (accept_intro false). cbn [pred_ok]. rewrite str_eqb_refl, !eqb_reflx. reflexivity.
Qed.

Lemma accepted_is_string neg f cased sv a :
  acceptb neg f (LStr cased sv) a = true -> exists c op l, a_pred a = AStr c op l.
Proof.
  intros H. apply acceptb_iff in H as [_ [H _]].
  destruct (a_pred a); try discriminate H. eauto.
Qed.

Theorem accepted_string_meaning neg f cased sv a c op l :
  acceptb neg f (LStr cased sv) a = true -> a_pred a = AStr c op l ->
  a_field a = f /\ c = cased /\ a_neg a = neg /\
  forall subj, wild_match (apattern op l) subj = wild_match (items sv) subj.
Proof.
  intros H Hp. apply acceptb_iff in H as [Hfd [Hi Hn]]. rewrite Hp in Hi.
  cbn [pred_ok] in Hi. apply andb_true_iff in Hi as [Hc Hi]. apply eqb_prop in Hc. apply items_eqb_eq in Hi.
  repeat split; auto.
  intros subj. rewrite <- (norm_sem (apattern op l)), Hi. apply norm_sem.
Qed.

End Decode.

Lemma wok_mem extra c : wok extra = true -> (c <=? 127) || N.eqb c c_lq || N.eqb c c_rq = true ->
  mem c extra = false.
Proof.
  intros Hw Hc. destruct (mem c extra) eqn:E; [|reflexivity].
  apply mem_In in E. unfold wok in Hw. rewrite forallb_forall in Hw. specialize (Hw c E).
  rewrite N.leb_antisym in Hc. destruct (127 <? c), (N.eqb c c_lq), (N.eqb c c_rq); discriminate.
Qed.
Lemma Wspec_W_of extra : wok extra = true -> Wspec (W_of extra).
Proof.
  intros Hw. split.
  - intros c Hc. unfold W_of. rewrite Hc. reflexivity.
  - assert (H : forallb (fun c => negb (ascii_word c) && ((c <=? 127) || N.eqb c c_lq || N.eqb c c_rq)) specials = true)
      by reflexivity.
    rewrite forallb_forall in *. intros c Hc. apply H in Hc. apply andb_true_iff in Hc as [Ha Hc].
    unfold W_of. rewrite (wok_mem extra c Hw Hc), orb_false_r. exact Ha.
Qed.

Definition k_all : vbk :=
  {| k_sw := true; k_ew := true; k_ct := true; k_special := false; k_wm := true; k_cs := true;
     k_cidr := true; k_nexists := true; k_qpat := None |}.

(* D4: the native CIDR template receives the raw field name *)
Lemma cidr_raw_field_refuted : exists f fo v txt,
  render_leaf (vb k_all) false f fo (fun _ => false) v = Ok txt /\
  exists a, atom_decode (W_of []) txt = Some a /\ acceptb false f v a = false.
Proof.
  exists (s "a,b"), ([], true), (LCidr (s "10.0.0.0/8") (s "10.0.0.0") (s "8") (s "255.0.0.0")).
  eexists. split; [vm_compute; reflexivity|]. eexists. split; vm_compute; reflexivity.
Qed.
(* a case-sensitive keyword is rendered like the case-insensitive one *)
Lemma unbound_cased_refuted : exists sv txt,
  render_val (vb k_all) false (LStr true sv) = Ok txt /\
  exists a, atom_decode (W_of []) txt = Some a /\ acceptb false [c_us] (LStr true sv) a = false.
Proof.
  exists [PStr (s "Foo")]. eexists. split; [vm_compute; reflexivity|]. eexists. split; vm_compute; reflexivity.
Qed.
(* non-vacuity: a field name that needs quoting and escaping, a value with wildcards and quote characters *)
Example leaf_premises_inhabited :
  wok [252] = true /\ fo_ok (W_of [252]) (s "it's \") ([5%nat], true) = true /\
  val_ok (W_of [252]) (s "it's \") (LStr false [PStr (s "say ""hi"" "); PMulti]) = true /\
  exists txt, render_leaf (vb k_all) true (s "it's \") ([5%nat], true) (fun _ => false)
                (LStr false [PStr (s "say ""hi"" "); PMulti]) = Ok txt.
Proof. repeat split; try reflexivity. eexists. vm_compute. reflexivity. Qed.
