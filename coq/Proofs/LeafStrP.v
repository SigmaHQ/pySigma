(* C05 through the backend: the complete leaf renderer on a string value, read back by the target language *)
From PS Require Import Base.Outcome Model.Leaf Spec.Items Spec.Atom Proofs.LeafP.

Theorem backend_string_leaf extra k neg f fo pm cased sv txt :
  wok extra = true -> k_qpat k = None ->
  fo_ok (W_of extra) f fo = true -> val_ok (W_of extra) f (LStr cased sv) = true ->
  render_leaf (vb k) neg f fo pm (LStr cased sv) = Ok txt ->
  exists a c op l, atom_decode (W_of extra) txt = Some a /\ a_pred a = AStr c op l /\
    a_field a = f /\ c = cased /\
    forall subj, wild_match (apattern op l) subj = wild_match (items sv) subj.
Proof.
  intros Hw Hq Hfo Hv Hr.
  destruct (leaf_decodes _ (Wspec_W_of extra Hw) k Hq _ _ _ _ _ _ Hfo Hv Hr) as [p [Hp Hd]].
  pose proof (accept_intro (negatable k (LStr cased sv) && neg) f _ _ Hp) as Ha.
  destruct (accepted_is_string _ _ _ _ _ Ha) as [c [op [l Hl]]].
  destruct (accepted_string_meaning _ f cased sv _ c op l Ha Hl) as [H1 [H2 [_ H4]]].
  eexists _, c, op, l. eauto.
Qed.
