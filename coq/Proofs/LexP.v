(* Lexing the rendered token sequence gives the token sequence back (theorem lex_show), for atom texts of
   the checkable shape; token sequences produced by the conversion always separate atoms (conv_sep_ok). *)
From Coq Require Import NArith List Bool Lia Arith.
From PS Require Import Base.Chars Model.Backend Spec.Atom Spec.Lex Proofs.CharsP Proofs.AtomP Proofs.BackendP Proofs.BackendMainP.
Import ListNotations.
Open Scope N_scope.

Lemma scan_word_app w rest : no_boundary w = true -> bnd rest = true -> scan_word (w ++ rest) = (w, rest).
Proof.
  intros Hw Hr. apply span_stop; [exact Hw|]. destruct rest; [reflexivity|]. cbn [bnd] in Hr. cbn [stop]. now rewrite Hr.
Qed.

Lemma scan_to_app q : forall x a suf, scan_to q x = Some (a, suf) ->
  x = a ++ suf /\ forall rest, scan_to q (x ++ rest) = Some (a, suf ++ rest).
Proof.
  induction x as [| |e x IH|c x Hc IH] using esc_ind; intros a suf H; cbn [scan_to app] in H |- *;
    rewrite ?N.eqb_refl, ?Hc in H |- *; try discriminate.
  - destruct (scan_to q x) as [[a' r']|]; [|discriminate]. injection H as <- <-.
    destruct (IH _ _ eq_refl) as [-> Hr]. split; [reflexivity|]. intros rest. now rewrite Hr.
  - destruct (N.eqb c q); [injection H as <- <-; now split|].
    destruct (scan_to q x) as [[a' r']|]; [|discriminate]. injection H as <- <-.
    destruct (IH _ _ eq_refl) as [-> Hr]. split; [reflexivity|]. intros rest. now rewrite Hr.
Qed.

Lemma nonkeyword_word w : is_keyword w = false -> word_tok w = XAtom w.
Proof.
  unfold is_keyword, word_tok. intros H.
  apply orb_false_iff in H as [H ->]. apply orb_false_iff in H as [-> ->]. reflexivity.
Qed.

Theorem shapeb_shape t : shapeb t = true -> atom_shape t.
Proof.
  unfold shapeb, atom_shape. destruct t as [|c t']; [discriminate|]. intros H rest Hr. cbn [app lex1].
  destruct (N.eqb c c_lq || N.eqb c c_sq) eqn:Eq.
  - assert (N.eqb c c_lpar = false /\ N.eqb c c_rpar = false) as [-> ->]
      by (apply orb_true_iff in Eq as [E|E]; apply N.eqb_eq in E; now subst c).
    destruct (scan_to _ t') as [[a suf]|] eqn:E; [|discriminate].
    destruct (scan_to_app _ _ _ _ E) as [-> Hs]. now rewrite Hs, (scan_word_app suf rest H Hr).
  - apply andb_true_iff in H as [Hn Hk]. pose proof Hn as Hc.
    (* c is no boundary, hence no parenthesis: lex1 scans a word *)
    unfold no_boundary in Hc. cbn [forallb] in Hc. unfold boundary in Hc.
    apply andb_true_iff in Hc as [Hc _]. apply negb_true_iff in Hc.
    apply orb_false_iff in Hc as [Hc ->]. apply orb_false_iff in Hc as [_ ->].
    change (c :: t' ++ rest) with ((c :: t') ++ rest).
    rewrite (scan_word_app _ _ Hn Hr), nonkeyword_word; [reflexivity | now apply negb_true_iff].
Qed.

Lemma shape_head t : atom_shape t -> exists c t', t = c :: t' /\ N.eqb c c_space = false.
Proof.
  intros H. specialize (H [] eq_refl). rewrite app_nil_r in H.
  destruct t as [|c t']; [discriminate|]. exists c, t'. split; [reflexivity|].
  destruct (N.eqb c c_space) eqn:E; [|reflexivity]. apply N.eqb_eq in E. subst c.
  cbn in H. discriminate.
Qed.

Section Show.
Variable atxt : nat -> bool -> str.
Variables ftxt vtxt : nat -> str.
Definition stxt := show_tok vb_syntax atxt ftxt vtxt.
Definition ltok_of (t : tok) : ltok :=
  match t with TOp o => XOp o | TL => XL | TR => XR | _ => XAtom (stxt t) end.

(* the premise is what sep_ok asks of the token after an atom *)
Lemma bnd_next r : match r with [] => true | u :: _ => okafter u end = true ->
  bnd (show vb_syntax atxt ftxt vtxt r) = true.
Proof. destruct r as [|[| |[]| |] r]; try discriminate; reflexivity. Qed.

(* The lexer spends one call per blank and one per lexical unit, however many characters the unit has: of the
   fuel length (stxt t) + f, a step over the text of t leaves n + f for some n, so any fuel above the length of
   the whole text will do. *)
Lemma lexq_tok t R f : (is_atom t = true -> atom_shape (stxt t) /\ bnd R = true) -> exists n,
  lexq (List.length (stxt t) + f) (stxt t ++ R) =
  match lexq (n + f) R with Some l => Some (ltok_of t :: l) | None => None end.
Proof.
  intros H. destruct (is_atom t) eqn:Ha.
  - destruct H as [Hs Hb]; [reflexivity|]. destruct (shape_head _ Hs) as (c & x' & Hx & Hc).
    exists (List.length x'). replace (ltok_of t) with (XAtom (stxt t)) by (destruct t; (discriminate Ha || reflexivity)).
    rewrite Hx at 1 2. cbn [List.length Nat.add lexq app]. rewrite Hc.
    change (c :: x' ++ R) with ((c :: x') ++ R). now rewrite <- Hx, (Hs R Hb).
  - destruct t as [| |[]| |]; try discriminate;
      [exists 2%nat | exists 2%nat | exists 1%nat | exists 0%nat | exists 0%nat]; reflexivity.
Qed.

Lemma lex_show_fuel ts : (forall t, In t ts -> is_atom t = true -> atom_shape (stxt t)) -> sep_ok ts = true ->
  forall d, lexq (List.length (show vb_syntax atxt ftxt vtxt ts) + S d) (show vb_syntax atxt ftxt vtxt ts)
            = Some (map ltok_of ts).
Proof.
  induction ts as [|t r IH]; intros Hsh Hsep d; [reflexivity|].
  cbn [sep_ok] in Hsep. apply andb_true_iff in Hsep as [Hnext Hsep].
  specialize (IH (fun u Hu => Hsh u (or_intror Hu)) Hsep).
  change (show vb_syntax atxt ftxt vtxt (t :: r)) with (stxt t ++ show vb_syntax atxt ftxt vtxt r).
  set (R := show vb_syntax atxt ftxt vtxt r) in *. rewrite app_length, <- Nat.add_assoc.
  destruct (lexq_tok t R (List.length R + S d)) as [n ->].
  - intros Ha. rewrite Ha in Hnext. split; [now apply Hsh; [left|] |].
    subst R. now apply bnd_next.
  - replace (n + (_ + S d))%nat with (List.length R + S (n + d))%nat by lia. now rewrite IH.
Qed.

Theorem lex_show ts : (forall t, In t ts -> is_atom t = true -> shapeb (stxt t) = true) -> sep_ok ts = true ->
  lex (show vb_syntax atxt ftxt vtxt ts) = Some (map ltok_of ts).
Proof.
  intros Hsh Hsep. unfold lex. rewrite <- Nat.add_1_r. apply lex_show_fuel; [|exact Hsep].
  intros t Ht Ha. apply shapeb_shape. apply Hsh; assumption.
Qed.
End Show.

Lemma sep_ok_app a t b : okafter t = true -> sep_ok a = true -> sep_ok (t :: b) = true -> sep_ok (a ++ t :: b) = true.
Proof.
  intros Ht. induction a as [|x a IH]; intros Ha Hb; [exact Hb|].
  cbn [sep_ok] in Ha. apply andb_true_iff in Ha. destruct Ha as [Hx Ha].
  cbn [app sep_ok]. rewrite (IH Ha Hb). rewrite andb_true_r.
  destruct (is_atom x); [|reflexivity]. destruct a as [|y a']; [exact Ht|exact Hx].
Qed.
Lemma sep_ok_group x : sep_ok x = true -> sep_ok (group x) = true.
Proof.
  intros H. unfold group. cbn [sep_ok is_atom]. apply sep_ok_app; [reflexivity|exact H|reflexivity].
Qed.
Lemma sep_ok_join o l : binary o -> Forall (fun x => sep_ok x = true) l -> sep_ok (join (TOp o) l) = true.
Proof.
  intros Ho H. induction H as [|x r Hx Hr IH]; [reflexivity|].
  destruct r as [|y r']; [exact Hx|].
  rewrite join_cons.
  apply sep_ok_app; [destruct o; [now elim Ho|reflexivity|reflexivity] | exact Hx |].
  cbn [sep_ok is_atom andb]. exact IH.
Qed.

Lemma sep_ok_args K un o args : binary o ->
  Forall (fun c => forall un, sep_ok (conv K un c) = true) args ->
  sep_ok (join (TOp o) (map (tokens_of K un o) args)) = true.
Proof.
  intros Ho IH. apply sep_ok_join; auto. apply Forall_map. eapply Forall_impl; [|exact IH].
  intros a Ha. unfold tokens_of. destruct (cmp K o a); [|apply sep_ok_group]; apply Ha.
Qed.

Theorem conv_sep_ok K c : forall un, sep_ok (conv K un c) = true.
Proof.
  induction c as [k f n a|args IH|f ps|a|a IH|o args IH] using cond_ind'; intros un.
  - reflexivity.
  - rewrite conv_exp. now apply sep_ok_args.
  - cbn [conv]. destruct (_ && _); [reflexivity|]. destruct ps as [|p [|q r]]; [reflexivity..|].
    apply sep_ok_group, sep_ok_join; [discriminate|]. apply Forall_map, Forall_forall. reflexivity.
  - cbn [conv]. destruct (not_eq K); reflexivity.
  - rewrite conv_not.
    assert (Hb : sep_ok (not_body K true a) = true) by (destruct a; try apply sep_ok_group; apply IH).
    destruct (not_eq K); exact Hb.
  - rewrite conv_bin. destruct (decide_in K o args); [reflexivity|].
    apply sep_ok_args; auto. apply of_binary.
Qed.

Theorem query_lexes K tree un atxt ftxt vtxt :
  (forall t, In t (conv K un tree) -> is_atom t = true -> shapeb (stxt atxt ftxt vtxt t) = true) ->
  lex (show vb_syntax atxt ftxt vtxt (conv K un tree)) = Some (map (ltok_of atxt ftxt vtxt) (conv K un tree)).
Proof. intros H. apply lex_show; [exact H|apply conv_sep_ok]. Qed.
