(* C07 for the single-document loaders of Model/Loader.v: on the domains of Spec/LoaderSpec.v only Sigma errors
   escape, collecting mode returns (rules and filters) and agrees with strict mode; witnesses where this fails. *)
From Coq Require Import NArith ZArith List Bool.
From PS Require Import Base.Chars Base.Outcome Model.Yaml Model.LoaderStrings Model.Loader Spec.LoaderSpec Proofs.OutcomeP.
Import ListNotations.
Open Scope N_scope.

Definition total {A} (o : outcome A) : Prop := exists a, o = Ok a.

(* `safe` of OutcomeP is `sigma_only` in a form that computes *)
Lemma safe_sigma_only {A} (o : outcome A) : safe o <-> sigma_only o.
Proof.
  split; [exact (safe_no_crash o)|].
  intros H. destruct o as [a|e|c]; try exact I. exact (H c eq_refl).
Qed.

Lemma total_ok {A} (a : A) : total (Ok a).
Proof. exists a. reflexivity. Qed.

Lemma total_safe {A} (o : outcome A) : total o -> safe o.
Proof. intros [a ->]. exact I. Qed.

Lemma iter_out_safe {A} (f : A -> outcome unit) l : (forall x, In x l -> safe (f x)) -> safe (iter_out f l).
Proof. intros H%Forall_forall. induction H; cbn [iter_out]; [exact I|]. apply obind_safe; auto. Qed.

Lemma iter_out_ok {A} (f : A -> outcome unit) l : Forall (fun x => f x = Ok tt) l -> iter_out f l = Ok tt.
Proof. induction 1 as [|x l Hx _ IH]; cbn [iter_out]; [reflexivity|]. rewrite Hx. exact IH. Qed.

Section Steps.
Variable L : lib.

Lemma run_steps_total (l : list step) d : Forall (fun s => total (s d)) l -> total (run_steps l d).
Proof.
  induction 1 as [|s l [e He] _ [es Hes]]; cbn [run_steps]; [apply total_ok|].
  rewrite He. cbn [obind]. rewrite Hes. apply total_ok.
Qed.

Lemma st_id_total m : total (st_id L (YMap m)).
Proof.
  unfold st_id. cbn [dget obind]. destruct (assoc m s_id) as [[| | | |s| | |]|]; try apply total_ok.
  cbn. destruct (uuid_ok L s); apply total_ok.
Qed.

Lemma base_post_init_total m : total (base_post_init L (YMap m)).
Proof.
  unfold base_post_init. cbn [dget obind]. destruct (assoc m s_id) as [[| | | |s| | |]|]; try apply total_ok.
  cbn. destruct (uuid_ok L s); apply total_ok.
Qed.

Lemma related_item_shape v : related_item L v = Ok tt \/ related_item L v = SigmaErr ERelated.
Proof.
  unfold related_item. destruct v as [| | | | | | |m]; auto.
  destruct (assoc m s_id) as [i|]; [|destruct (assoc m s_type); auto].
  destruct (assoc m s_type) as [t|]; auto.
  destruct i as [| | | |s| | |]; cbn -[in_strs]; auto.
  destruct (uuid_ok L s); cbn -[in_strs]; auto.
  destruct t as [| | | |u| | |]; cbn -[in_strs]; auto.
  destruct (in_strs (upper u) related_types); auto.
Qed.

Lemma st_related_total m : total (st_related L (YMap m)).
Proof.
  unfold st_related. cbn [dget obind]. destruct (assoc m s_related) as [[| | | | | |l|]|]; try apply total_ok.
  assert (H : iter_out (related_item L) l = Ok tt \/ iter_out (related_item L) l = SigmaErr ERelated).
  { induction l as [|x l IH]; cbn [iter_out]; auto.
    destruct (related_item_shape x) as [-> | ->]; auto. }
  destruct H as [-> | ->]; apply total_ok.
Qed.

Lemma enum_step_total key names err m : total (enum_step key names err (YMap m)).
Proof.
  unfold enum_step. cbn [dget obind]. destruct (assoc m key) as [[]|]; apply total_ok.
Qed.

(* from_dict_common_params never fails on a map: every ill-typed value becomes a collected error *)
Lemma common_total m : total (run_steps (common_steps L) (YMap m)).
Proof.
  (* the steps not named below only look at `d.get(key)` and return a list: each is `Ok _` by conversion *)
  apply run_steps_total. repeat apply Forall_cons; try apply Forall_nil; try apply total_ok.
  - apply st_id_total.
  - apply st_related_total.
  - apply enum_step_total.
  - apply enum_step_total.
Qed.

(* log source: SigmaLogSource.from_dict fails with SigmaLogsourceError or AttributeError only, both handled *)
Lemma st_logsource_total m : total (st_logsource (YMap m)).
Proof.
  unfold st_logsource. cbn [ditem]. destruct (assoc m s_logsource) as [v|]; [|apply total_ok]. cbn [obind].
  unfold logsource_from_dict. destruct v; try apply total_ok. cbn [ditems obind].
  destruct (_ && _ && _); [apply total_ok|]. destruct (_ || _ || _ || _); apply total_ok.
Qed.
End Steps.

Definition strict_of (errs : list N) : outcome (list N) := match errs with [] => Ok [] | e :: _ => SigmaErr e end.

Lemma strict_of_agrees strict collect errs :
  collect = Ok errs -> strict = strict_of errs -> collect_agrees strict collect.
Proof. intros -> ->. exists errs. split; [reflexivity|]. destruct errs; reflexivity. Qed.

Lemma strict_of_iff errs : collect_iff (strict_of errs) errs.
Proof.
  destruct errs as [|e r]; cbn.
  - split; [split; reflexivity|]. intros e0. split; discriminate.
  - split; [split; discriminate|]. intros e0. split; intros [= ->]; reflexivity.
Qed.

Section Shape.
Variable L : lib.
Variable stage2 : step.
Variable final : yv -> outcome unit.

Lemma load_with_agrees d errs :
  load_with L stage2 final true d = Ok errs -> load_with L stage2 final false d = strict_of errs.
Proof.
  unfold load_with. destruct (run_steps (common_steps L) d) as [e1|?|?]; cbn; try discriminate.
  destruct (stage2 d) as [e2|?|?]; cbn; try discriminate.
  destruct (final d) as [[]|?|?]; cbn; try discriminate.
  intros [= <-]. destruct e1; [destruct e2|]; reflexivity.
Qed.

Lemma load_with_collect_raise d e :
  load_with L stage2 final true d = SigmaErr e ->
  exists e', load_with L stage2 final false d = SigmaErr e'.
Proof.
  unfold load_with. destruct (run_steps (common_steps L) d) as [[|a e1]|?|?]; cbn; try discriminate; eauto.
  (* with nothing collected the two modes run the same code from here on *)
  destruct (stage2 d) as [[|b e2]|?|?]; cbn; try discriminate; eauto.
Qed.

Lemma load_with_safe m c :
  safe (stage2 (YMap m)) -> safe (final (YMap m)) -> safe (load_with L stage2 final c (YMap m)).
Proof.
  intros H2 H3. unfold load_with. destruct (common_total L m) as [e1 ->]. cbn [obind].
  assert (R : forall es, safe (raise_first c es)) by (intros es; destruct c, es; exact I).
  repeat (apply obind_safe; [auto | intros ?]). exact I.
Qed.

Lemma load_with_total m :
  total (stage2 (YMap m)) -> total (final (YMap m)) -> total (load_with L stage2 final true (YMap m)).
Proof.
  intros [e2 H2] [[] H3]. unfold load_with. destruct (common_total L m) as [e1 ->]. cbn. rewrite H2. cbn.
  rewrite H3. apply total_ok.
Qed.

Lemma holds_of d :
  sigma_only (load_with L stage2 final false d) -> total (load_with L stage2 final true d) ->
  C07_holds (load_with L stage2 final false d) (load_with L stage2 final true d).
Proof.
  intros Hs [errs Hc]. split; [exact Hs|]. split; [rewrite Hc; discriminate|].
  exact (strict_of_agrees _ _ errs Hc (load_with_agrees d errs Hc)).
Qed.

Lemma load_with_holds m :
  total (stage2 (YMap m)) -> total (final (YMap m)) ->
  C07_holds (load_with L stage2 final false (YMap m)) (load_with L stage2 final true (YMap m)).
Proof.
  intros H2 H3. apply holds_of; [|apply load_with_total; assumption].
  apply safe_sigma_only, load_with_safe; apply total_safe; assumption.
Qed.
End Shape.

Section Det.
Variable L : lib.

Definition is_wide (m : md) : bool := match m with MWide | MUtf16 | MUtf16be => true | _ => false end.
(* The invariant of a modifier chain on its values.  w: the chain contains a UTF-16 modifier.  Then every value is
   one that such a modifier takes without leaving the modelled fragment (`wide_like` does not reach X_Unmodelled):
   a string that is ASCII or carries U+FEFF (enc is not 2), or raw ASCII text. *)
Definition good (w : bool) (v : vk) : bool :=
  match v with
  | KStr _ e _ => negb (N.eqb e 2) || negb w
  | KRaw s => is_ascii s || negb w
  | _ => true
  end.

Lemma apply_value_good w m f a v :
  good w v = true -> (is_wide m = true -> w = true) ->
  ensures False (fun v' => good w v' = true) (apply_value_mod L m f a v).
Proof.
  intros Hg Hw. destruct (is_wide m) eqn:Em.
  - (* a UTF-16 modifier: w holds, so v is ASCII text or carries U+FEFF *)
    rewrite (Hw eq_refl) in *.
    destruct m; try discriminate Em; destruct v; try exact I; cbn -[N.eqb] in *; rewrite orb_false_r in Hg.
    1, 3, 5: unfold wide_like; destruct (N.eqb enc 2); [discriminate Hg|]; apply ensures_if; [exact I | reflexivity].
    all: rewrite Hg; cbn; rewrite Hg; reflexivity.
  - (* any other modifier returns v, a value that is good whatever w is, or a Sigma error *)
    destruct m; try discriminate Em; destruct v; cbn -[N.eqb] in *;
      repeat apply ensures_if; try exact I; try exact Hg; reflexivity.
Qed.

Lemma apply_mods_safe w mods : forall f a vals,
  Forall (fun v => good w v = true) vals -> (existsb is_wide mods = true -> w = true) ->
  safe (apply_mods L mods f a vals).
Proof.
  induction mods as [|m r IH]; intros f a vals Hv Hw; cbn [apply_mods existsb] in *; [exact I|].
  assert (Hm : is_wide m = true -> w = true) by (intros E; apply Hw; rewrite E; reflexivity).
  assert (Hr : existsb is_wide r = true -> w = true) by (intros E; apply Hw; rewrite E; apply orb_true_r).
  destruct (is_list_mod m); [apply IH; assumption|].
  apply (ensures_bind False (Forall (fun v => good w v = true))); [|intros vals' Hv'; apply IH; assumption].
  apply ensures_traverse. intros v Hin. apply apply_value_good; [exact (proj1 (Forall_forall _ _) Hv v Hin) | exact Hm].
Qed.

Lemma md_lookup_In t i m : md_lookup t i = Some m -> In (i, m) t.
Proof.
  induction t as [|[n m'] t IH]; cbn [md_lookup]; [discriminate|].
  destruct (str_eqb n i) eqn:E; [|right; auto].
  apply str_eqb_eq in E. intros [= ->]. left. rewrite E. reflexivity.
Qed.

Definition wide_ids : list str := [s_wide; s_utf16; s_utf16be].

(* facts about md_table come from one evaluation of a test on its rows (the `eq_refl` below), not a case split on i *)
Lemma md_table_check (p : str -> md -> bool) i m :
  forallb (fun nm => p (fst nm) (snd nm)) md_table = true -> md_lookup md_table i = Some m -> p i m = true.
Proof. intros H E. exact (proj1 (forallb_forall _ _) H _ (md_lookup_In _ _ _ E)). Qed.

Lemma md_lookup_wide i m : md_lookup md_table i = Some m -> is_wide m = in_strs i wide_ids.
Proof. intros E. apply eqb_prop. exact (md_table_check (fun i m => eqb (is_wide m) (in_strs i wide_ids)) i m eq_refl E). Qed.

Lemma md_lookup_re i m : md_lookup md_table i = Some m -> md_eqb MRe m = str_eqb s_re i.
Proof. intros E. apply eqb_prop. exact (md_table_check (fun i m => eqb (md_eqb MRe m) (str_eqb s_re i)) i m eq_refl E). Qed.

Lemma md_all_wide ids :
  ensures False (fun mods => existsb is_wide mods = existsb (fun i => in_strs i wide_ids) ids) (md_all ids).
Proof.
  induction ids as [|i r IH]; cbn [md_all]; [reflexivity|].
  destruct (md_lookup md_table i) as [m|] eqn:Em; [|exact I].
  eapply ensures_bind; [exact IH|]. intros ms H. cbn.
  rewrite H, (md_lookup_wide i m Em). reflexivity.
Qed.

(* how from_mapping types a value: with `re` a string is kept verbatim *)
Definition typed (has_re : bool) (v : yv) : outcome vk :=
  match v with YStr s => if has_re then Ok (KRaw s) else sigma_type v | _ => sigma_type v end.
Definition ascii_val (x : yv) : bool := match x with YStr t => is_ascii t | _ => true end.

Lemma typed_good w has_re x :
  (w = true -> ascii_val x = true) -> ensures False (fun v => good w v = true) (typed has_re x).
Proof.
  intros H. destruct x as [| |z|k|t| | |]; cbn [typed sigma_type].
  (* the numeric cases first and by their shape: a conversion test would evaluate the bound in float_overflow *)
  3, 4: apply ensures_if; [exact I | reflexivity].
  1, 2, 4, 5, 6: exact I || reflexivity.
  cbn [ascii_val] in H.
  destruct has_re, w; cbn; rewrite ?(H eq_refl), ?orb_true_r; reflexivity.
Qed.

Definition item_of_parts (parts : list str) (v : yv) : outcome unit :=
  obind (md_all (tl parts)) (fun mods =>
    obind (map_out (typed (existsb (md_eqb MRe) mods)) (val_list v)) (fun vals =>
      apply_mods L mods (match parts with [] :: _ => true | [] => true | _ => false end) false vals)).

Lemma from_mapping_unfold k v :
  from_mapping L k v =
  obind (if is_null k then Ok [[]] else if negb (is_str k) then SigmaErr EDetection else py_split_pipe k)
    (fun parts => item_of_parts parts v).
Proof. reflexivity. Qed.

(* The premise is item_ok (Spec/LoaderSpec.v) read on the split key: `wide_ids` and `ascii_val` name the list and the
   test written out there and have to stay convertible with them, from_mapping_safe hands its `item_ok k v = true` over
   as it is. *)
Lemma item_of_parts_safe parts v :
  (if existsb (fun i => in_strs i wide_ids) (tl parts) then forallb ascii_val (val_list v) else true) = true ->
  safe (item_of_parts parts v).
Proof.
  intros Hw. eapply ensures_bind; [apply md_all_wide|]. intros mods Hm.
  apply (ensures_bind False (Forall (fun v => good (existsb is_wide mods) v = true)));
    [|intros vals Hv; apply (apply_mods_safe (existsb is_wide mods)); auto].
  apply ensures_traverse. intros x Hx. apply typed_good. intros E. rewrite Hm in E. rewrite E in Hw. exact (proj1 (forallb_forall _ _) Hw x Hx).
Qed.

Lemma from_mapping_safe k v : item_ok k v = true -> safe (from_mapping L k v).
Proof.
  intros Hok. rewrite from_mapping_unfold. destruct k as [| | | |s| | |]; try exact I; apply item_of_parts_safe.
  - (* keyword item: no modifiers *) reflexivity.
  - exact Hok.
Qed.

Lemma from_def_safe d : def_ok d = true -> safe (from_def L d).
Proof.
  induction d as [| | | | | |l IH|m IH] using yv_ind'; intros Hok;
    try (apply from_mapping_safe; reflexivity); try exact I.
  - cbn [from_def]. destruct (forallb is_plain l); [apply from_mapping_safe; reflexivity|].
    cbn [def_ok] in Hok. induction IH as [|x r Hx _ IHr]; [exact I|].
    apply andb_true_iff in Hok as [H1 H2]. apply obind_safe; auto.
  - cbn [from_def]. cbn [def_ok] in Hok. apply obind_safe; [|intros _; destruct m; exact I].
    clear IH. induction m as [|[k v] r IHr]; [exact I|].
    cbn [forallb fst snd] in Hok. apply andb_true_iff in Hok as [H1 H2].
    apply obind_safe; [apply from_mapping_safe; exact H1 | auto].
Qed.

Lemma named_defs_safe reserved m :
  forallb (fun kv => def_ok (snd kv)) m = true -> safe (iter_out (from_def L) (named_defs reserved m)).
Proof.
  induction m as [|[k v] r IH]; cbn [named_defs forallb snd]; intros H; [exact I|].
  apply andb_true_iff in H as [H1 H2]. destruct (existsb (key_is k) reserved); [exact (IH H2)|].
  apply obind_safe; [exact (from_def_safe v H1) | intros _; exact (IH H2)].
Qed.

Lemma detections_safe dm :
  forallb (fun kv => def_ok (snd kv)) dm = true -> safe (detections_from_dict L (YMap dm)).
Proof.
  intros Hok. unfold detections_from_dict. cbn [ditem ditems].
  destruct (assoc dm s_condition) as [c|]; [|exact I]. cbn [catch obind].
  apply obind_safe; [exact (named_defs_safe _ dm Hok) | intros _].
  destruct (named_defs _ dm); [exact I|]. destruct c as [| | | | | |[|]|]; exact I.
Qed.

Lemma global_filter_safe dm :
  forallb (fun kv => def_ok (snd kv)) dm = true -> safe (global_filter_from_dict L (YMap dm)).
Proof.
  intros Hok. unfold global_filter_from_dict. cbn [ditem ditems].
  destruct (assoc dm s_condition) as [c|]; [|exact I]. cbn [catch obind].
  destruct (is_str c); [|exact I]. cbn [obind].
  destruct (assoc dm s_rules) as [r|]; [|exact I]. cbn [catch obind].
  destruct (is_str r || is_list r); [|exact I]. cbn [obind].
  apply obind_safe; [exact (named_defs_safe _ dm Hok) | intros _].
  destruct (named_defs _ dm); exact I.
Qed.

(* the try/except around a section of the document: KeyError (no such section) and TypeError (the section
   is not a map) become a collected error, so the step returns as soon as the section's loader is safe on the
   maps that section_ok admits *)
Lemma section_step_total (f : yv -> outcome unit) key err m :
  (forall v, is_map v = false -> f v = Crash X_Type) ->
  (forall dm, forallb (fun kv => def_ok (snd kv)) dm = true -> safe (f (YMap dm))) ->
  section_ok key (YMap m) = true ->
  total (match (v <- ditem (YMap m) key ;; f v) with
         | Ok _ => Ok []
         | SigmaErr e => Ok [e]
         | Crash c => if N.eqb c X_Key || N.eqb c X_Type then Ok [err] else Crash c
         end).
Proof.
  intros Hn Hm Hok. cbn [ditem section_ok] in *. destruct (assoc m key) as [v|]; [|apply total_ok]. cbn [obind].
  destruct (is_map v) eqn:E; [|rewrite (Hn v E); apply total_ok].
  destruct v as [| | | | | | |dm]; try discriminate E. specialize (Hm dm Hok).
  destruct (f (YMap dm)); try apply total_ok. destruct Hm.
Qed.

Lemma st_detection_total m : section_ok s_detection (YMap m) = true -> total (st_detection L (YMap m)).
Proof.
  apply section_step_total; [|exact detections_safe].
  intros v E. destruct v; try discriminate E; reflexivity.
Qed.

Lemma st_filter_total m : section_ok s_filter (YMap m) = true -> total (st_filter L (YMap m)).
Proof.
  apply section_step_total; [|exact global_filter_safe].
  intros v E. destruct v; try discriminate E; reflexivity.
Qed.

(* rules and filters are loaded alike: the log source, then the one section that tells them apart *)
Lemma section_loader_holds sec (st : step) d :
  (forall m, section_ok sec (YMap m) = true -> total (st (YMap m))) -> section_ok sec d = true ->
  C07_holds (load_with L (run_steps [st_logsource; st]) (base_post_init L) false d)
            (load_with L (run_steps [st_logsource; st]) (base_post_init L) true d).
Proof.
  intros Hst Hd. destruct d as [| | | | | | |m]; try discriminate Hd.
  apply load_with_holds; [|apply base_post_init_total].
  apply run_steps_total. repeat constructor; [apply st_logsource_total | exact (Hst m Hd)].
Qed.

Theorem rule_holds d : rule_dom d = true -> C07_holds (load_rule L false d) (load_rule L true d).
Proof. exact (section_loader_holds s_detection _ d st_detection_total). Qed.

Theorem filter_holds d : filter_dom d = true -> C07_holds (load_filter L false d) (load_filter L true d).
Proof. exact (section_loader_holds s_filter _ d st_filter_total). Qed.
End Det.

Section Corr.
Variable L : lib.

Lemma corr_type_safe cm : safe (corr_type (YMap cm)).
Proof. unfold corr_type. cbn [dget obind]. destruct (assoc cm s_type) as [[]|]; exact I. Qed.

Lemma corr_aliases_safe cm : safe (corr_aliases (YMap cm)).
Proof.
  unfold corr_aliases. cbn [dget obind]. destruct (assoc cm s_aliases) as [[| | | | | | |a]|]; try exact I.
  destruct (forallb (fun kv => is_map (snd kv)) a); exact I.
Qed.

Lemma int_or_cond_error_safe v : safe (int_or_cond_error L v).
Proof.
  unfold int_or_cond_error, py_int. destruct v as [| | |k|s| | |]; try exact I.
  - destruct (N.eqb k 1); [exact I|]. destruct (N.eqb k 2); exact I.
  - destruct (int_ok L s); exact I.
Qed.

Lemma basic_condition_safe m : safe (basic_condition L m).
Proof.
  unfold basic_condition.
  destruct (filter (fun kv => key_in cond_ops (fst kv)) m) as [|[k cnt] [|? ?]]; try exact I.
  apply ensures_if; [exact I|].
  apply obind_safe; [apply int_or_cond_error_safe | intros _].
  apply obind_safe; [|intros _; exact I].
  destruct (assoc m s_percentile); [apply int_or_cond_error_safe | exact I].
Qed.

Lemma corr_condition_safe cm t n : safe (corr_condition L (YMap cm) t n).
Proof.
  unfold corr_condition. cbn [dget obind].
  destruct (assoc cm s_condition) as [[| | | |s| | |k]|]; try exact I.
  - destruct (negb (is_temporal t)); [exact I|]. destruct (ext_refs L s); exact I.
  - apply obind_safe; [apply basic_condition_safe | intros; exact I].
Qed.

Lemma corr_section_map m : exists cm e, corr_section (YMap m) = Ok (YMap cm, e) /\
  (assoc m s_correlation = Some (YMap cm) \/ cm = []).
Proof.
  unfold corr_section. cbn [dget_opt obind].
  destruct (assoc m s_correlation) as [[| | | | | | |cm]|]; eauto 6.
Qed.

Lemma corr_parse_rules m :
  corr_dom (YMap m) = true ->
  ensures False (fun r => forallb is_str (cs_rules (fst r)) = true) (corr_parse L (YMap m)).
Proof.
  intros Hd. unfold corr_parse. destruct (corr_section_map m) as (cm & e0 & -> & Hcm).
  (* generate, group-by and timespan only read `d.get(...)` of the map and return: their three binds compute away *)
  cbn [obind fst snd corr_generate corr_groupby corr_timespan dget].
  eapply ensures_bind; [apply corr_type_safe | intros r1 _].
  apply (ensures_bind False (fun r2 => forallb is_str (fst r2) = true)).
  { (* the section is the document's `correlation` entry, of which corr_dom speaks, or empty *)
    unfold corr_rules. cbn [dget obind]. destruct Hcm as [E | ->]; [|reflexivity].
    cbn [corr_dom] in Hd. rewrite E in Hd. destruct (assoc cm s_rules) as [[]|]; cbn; auto. }
  intros r2 Hr.
  eapply ensures_bind; [apply corr_aliases_safe | intros e6 _].
  eapply ensures_bind; [apply corr_condition_safe | intros r7 _]. exact Hr.
Qed.

Lemma str_hashable x : is_str x = true -> hashable x = true.
Proof. destruct x; easy. Qed.

Lemma corr_post_init_safe s : forallb is_str (cs_rules s) = true -> safe (corr_post_init s).
Proof.
  destruct s as [t rules k]. cbn [cs_rules]. intros Hs. unfold corr_post_init. cbn [cs_type cs_rules cs_cond].
  pose proof (proj1 (forallb_forall _ _) Hs) as Hin.
  apply obind_safe.
  - destruct k as [| |refs]; try exact I.
    destruct (negb (is_temporal t)); [exact I|]. destruct rules as [|r0 rs]; [exact I|].
    (* string references are hashable, and those the condition does not mention are strings again *)
    rewrite (proj2 (forallb_forall hashable _)) by (intros x Hx; apply str_hashable, Hin, Hx).
    cbn [negb]. destruct (filter _ (r0 :: rs)) as [|u us] eqn:F; [apply ensures_if; exact I|].
    replace (forallb is_str (u :: us)) with true; [exact I|].
    symmetry. apply forallb_forall. intros x Hx. rewrite <- F in Hx. apply filter_In in Hx. apply Hin, Hx.
  - intros _. destruct k as [|h|refs], t; try exact I. destruct h; exact I.
Qed.

Theorem corr_sigma_only d c : corr_dom d = true -> sigma_only (load_corr L c d).
Proof.
  intros Hd. destruct d as [| | | | | | |m]; try discriminate. pose proof (corr_parse_rules m Hd) as P.
  apply safe_sigma_only, load_with_safe.
  - eapply ensures_bind; [exact P | intros; exact I].
  - apply obind_safe; [apply total_safe, base_post_init_total | intros _].
    eapply ensures_bind; [exact P | intros r; apply corr_post_init_safe].
Qed.

Theorem corr_holds_partial d :
  corr_dom d = true -> total (load_corr L true d) ->
  C07_holds (load_corr L false d) (load_corr L true d).
Proof. intros Hd Hc. apply holds_of; [exact (corr_sigma_only d false Hd) | exact Hc]. Qed.

Theorem corr_collect_raise_is_invalid d e :
  load_corr L true d = SigmaErr e -> exists e', load_corr L false d = SigmaErr e'.
Proof. apply load_with_collect_raise. Qed.
End Corr.

Definition lib_w : lib :=
  {| uuid_ok := fun _ => true; uuid_key := fun _ => 0; int_ok := fun _ => true; re_ok := fun _ => true; cidr_ok := fun _ => true;
     ext_refs := fun _ => Some [[114; 49]; [114; 50]] |}.        (* "r1", "r2" *)
Definition k (s : str) := YStr s.
(* title: t / correlation: {type: value_count, rules: r, timespan: 5m, condition: {gte: 1}} *)
Definition w_corr_nofield : yv :=
  YMap [(k s_title, k [116]);
        (k s_correlation, YMap [(k s_type, k (lower_ascii s_VALUE_COUNT)); (k s_rules, k [114]);
                                (k s_timespan, k [53; 109]); (k s_condition, YMap [(k s_gte, YInt 1)])])].
(* title: t / correlation: {type: temporal, rules: [5, r1], timespan: 5m, condition: r1}; lib_w reads the references
   r1 and r2 out of any extended condition *)
Definition w_corr_intref : yv :=
  YMap [(k s_title, k [116]);
        (k s_correlation, YMap [(k s_type, k (lower_ascii s_TEMPORAL)); (k s_rules, YList [YInt 5; k [114; 49]]);
                                (k s_timespan, k [53; 109]); (k s_condition, k [114; 49])])].
(* title: t / logsource: {category: x} / detection: {sel: {f|contains|all: [a, b], g|re: x, h: 1}, condition: sel} *)
Definition w_rule : yv :=
  YMap [(k s_title, k [116]);
        (k s_logsource, YMap [(k s_category, k [120])]);
        (k s_detection, YMap [(k [115; 101; 108],
                               YMap [(k ([102; 124] ++ s_contains ++ [124] ++ s_all), YList [k [97]; k [98]]);
                                     (k ([103; 124] ++ s_re), k [120]); (k [104], YInt 1)]);
                              (k s_condition, k [115; 101; 108])])].

Lemma nonmap_refuted : forall L c, load_rule L c (YList [YStr [97]]) = Crash X_Attr.
Proof. intros L c. reflexivity. Qed.
Lemma corr_collect_total_refuted :
  exists L d e, corr_dom d = true /\ load_corr L true d = SigmaErr e.
Proof. exists lib_w, w_corr_nofield, ECorrRule. split; vm_compute; reflexivity. Qed.
Lemma corr_sigma_only_refuted :
  exists L d x, forall c, load_corr L c d = Crash x.
Proof. exists lib_w, w_corr_intref, X_Type. intros c. destruct c; vm_compute; reflexivity. Qed.
Lemma premises_inhabited :
  rule_dom w_rule = true /\ load_rule lib_w true w_rule = Ok [] /\ load_rule lib_w false w_rule = Ok [] /\
  corr_dom w_corr_nofield = true.
Proof. repeat split; vm_compute; reflexivity. Qed.

(* the three loaders at once: the domain of each *)
Definition dom (k : kind) : yv -> bool :=
  match k with KRule => rule_dom | KCorr => corr_dom | KFilter => filter_dom end.

Theorem sigma_only_all L k c d : dom k d = true -> sigma_only (load L k c d).
Proof.
  destruct k; cbn [dom load]; intros Hd.
  - destruct (rule_holds L d Hd) as [Hs [Hc _]]. destruct c; assumption.
  - apply corr_sigma_only; exact Hd.
  - destruct (filter_holds L d Hd) as [Hs [Hc _]]. destruct c; assumption.
Qed.

Theorem collect_total_all L k d : k <> KCorr -> dom k d = true -> total (load L k true d).
Proof.
  destruct k; cbn [dom load]; intros Hk Hd; try congruence.
  - destruct (rule_holds L d Hd) as [_ [_ [errs [H _]]]]. exists errs; exact H.
  - destruct (filter_holds L d Hd) as [_ [_ [errs [H _]]]]. exists errs; exact H.
Qed.

Lemma load_agrees L k d errs : load L k true d = Ok errs -> load L k false d = strict_of errs.
Proof. destruct k; apply load_with_agrees. Qed.

Theorem collect_iff_all L k d errs : load L k true d = Ok errs -> collect_iff (load L k false d) errs.
Proof. intros H. rewrite (load_agrees L k d errs H). apply strict_of_iff. Qed.
