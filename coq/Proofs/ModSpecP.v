(* Declarative content of the item-level specification (Spec/ModSpec.v): what the wildcard-adding
   modifiers mean for matching, what the variant set of windash is, what expand reads. *)
From Coq Require Import NArith List Bool Lia.
From PS Require Import Base.Chars Model.Modifiers Spec.Items Spec.ModSpec Proofs.CharsP Proofs.SStringP.
Import ListNotations.
Open Scope N_scope.

Lemma wm_multi p s : wild_match (Multi :: p) s = some_suffix (wild_match p) s.
Proof. induction s as [|x s IH]; simpl; [reflexivity | rewrite <- IH; reflexivity]. Qed.

Lemma wm_multi_split p s :
  wild_match (Multi :: p) s = true <-> exists a m, s = a ++ m /\ wild_match p m = true.
Proof. rewrite wm_multi. apply some_suffix_spec. Qed.

Lemma wm_app p : forall q s,
  wild_match (p ++ q) s = true <->
  exists s1 s2, s = s1 ++ s2 /\ wild_match p s1 = true /\ wild_match q s2 = true.
Proof.
  induction p as [|i p IH]; intros q s; split.
  - intros H. exists [], s. auto.
  - intros (s1 & s2 & -> & H1 & H2). destruct s1; [exact H2 | discriminate H1].
  - intros H. destruct i as [c| | |n]; [destruct s as [|x s]; [discriminate H|] | | destruct s as [|x s]; [discriminate H|] | discriminate H].
    + simpl in H. apply andb_true_iff in H as [Hc H]. apply IH in H as (s1 & s2 & -> & H1 & H2).
      exists (x :: s1), s2. simpl. rewrite Hc. auto.
    + apply wm_multi_split in H as (a & m & -> & H). apply IH in H as (s1 & s2 & -> & H1 & H2).
      exists (a ++ s1), s2. rewrite app_assoc. repeat split; [|exact H2]. apply wm_multi_split. eauto.
    + apply IH in H as (s1 & s2 & -> & H1 & H2). exists (x :: s1), s2. auto.
  - intros (s1 & s2 & -> & H1 & H2).
    destruct i as [c| | |n]; [destruct s1 as [|x s1]; [discriminate H1|] | | destruct s1 as [|x s1]; [discriminate H1|] | discriminate H1].
    + simpl in *. apply andb_true_iff in H1 as [-> H1]. apply IH. eauto.
    + apply wm_multi_split in H1 as (a & m & -> & H1). rewrite <- app_assoc. apply wm_multi_split.
      exists a, (m ++ s2). split; [reflexivity|]. apply IH. eauto.
    + apply IH. eauto.
Qed.

(* sp_front is what 'endswith' does to a string, sp_back what 'startswith' does (sp_modify) *)
Theorem sp_front_sem p s :
  wild_match (sp_front p) s = true <-> exists a m, s = a ++ m /\ wild_match p m = true.
Proof.
  unfold sp_front. destruct p as [|[c| | |n] p']; try apply wm_multi_split.
  split.
  - intros H. exists [], s. auto.
  - intros [a [m [E H]]]. apply wm_multi_split in H. destruct H as [a' [m' [E' H]]].
    apply wm_multi_split. exists (a ++ a'), m'. subst. rewrite app_assoc. auto.
Qed.

Lemma ends_multi_item_app a b : b <> [] -> ends_multi_item (a ++ b) = ends_multi_item b.
Proof.
  intros Hb. induction a as [|i a IH]; [reflexivity|]. cbn [app].
  destruct (a ++ b) eqn:E; [destruct a; [subst; contradiction | discriminate E]|].
  rewrite <- IH. reflexivity.
Qed.
Lemma ends_multi_item_spec l : ends_multi_item l = true <-> exists q, l = q ++ [Multi].
Proof.
  induction l as [|x q _] using rev_ind.
  - split; [discriminate | intros [q E]; destruct q; discriminate E].
  - rewrite ends_multi_item_app by discriminate. split.
    + destruct x; try discriminate. eauto.
    + intros [q' E]. apply app_inj_tail in E as [_ ->]. reflexivity.
Qed.

Theorem sp_back_sem p s :
  wild_match (sp_back p) s = true <-> exists m b, s = m ++ b /\ wild_match p m = true.
Proof.
  unfold sp_back. destruct (ends_multi_item p) eqn:E.
  - apply ends_multi_item_spec in E. destruct E as [q ->]. split.
    + intros H. exists s, []. rewrite app_nil_r. auto.
    + intros (m & b & -> & H). apply wm_app in H as (s1 & s2 & -> & H1 & _).
      rewrite <- app_assoc. apply wm_app. exists s1, (s2 ++ b). auto using wild_star.
  - rewrite wm_app. split.
    + intros (s1 & s2 & E2 & H1 & _). eauto.
    + intros (m & b & E2 & H). exists m, b. auto using wild_star.
Qed.

Theorem sp_contains_sem p s :
  wild_match (sp_contains p) s = true <-> exists a m b, s = a ++ m ++ b /\ wild_match p m = true.
Proof.
  unfold sp_contains. rewrite sp_back_sem. split.
  - intros (m & b & -> & H). apply sp_front_sem in H as (a & m' & -> & H).
    exists a, m', b. rewrite app_assoc. auto.
  - intros (a & m & b & -> & H). exists (a ++ m), b. rewrite app_assoc. split; [reflexivity|].
    apply sp_front_sem. eauto.
Qed.

Lemma sp_front_idem l : sp_front (sp_front l) = sp_front l.
Proof. destruct l as [|[c| | |n] l]; reflexivity. Qed.
Theorem sp_back_only_missing l : (exists q, l = q ++ [Multi]) -> sp_back l = l.
Proof. intros H. apply ends_multi_item_spec in H. unfold sp_back. rewrite H. reflexivity. Qed.
Lemma sp_back_idem l : sp_back (sp_back l) = sp_back l.
Proof.
  unfold sp_back at 2 3. destruct (ends_multi_item l) eqn:E; [unfold sp_back; rewrite E; reflexivity|].
  apply sp_back_only_missing. eauto.
Qed.
Theorem sp_front_only_missing l : (exists l', l = Multi :: l') -> sp_front l = l.
Proof. intros [l' ->]. reflexivity. Qed.
Lemma ends_multi_item_front l : ends_multi_item (sp_front l) = match l with [] => true | _ => ends_multi_item l end.
Proof. destruct l as [|[c| | |n] [|j l]]; reflexivity. Qed.
Lemma sp_front_back_comm_head l : sp_front (sp_back l) = sp_back (sp_front l) \/ l = [].
Proof.
  destruct l as [|i l]; [right; reflexivity|left].
  unfold sp_back. rewrite ends_multi_item_front.
  destruct (ends_multi_item (i :: l)); [reflexivity|].
  destruct i; reflexivity.
Qed.
Theorem sp_contains_idem l : sp_contains (sp_contains l) = sp_contains l.
Proof.
  unfold sp_contains. destruct (sp_front_back_comm_head (sp_front l)) as [E|E].
  - rewrite E, sp_front_idem. apply sp_back_idem.
  - destruct l as [|[c| | |n] l]; discriminate E.
Qed.

(* windash.  Position-wise reading of "parameter-position dash": the item at index i is a literal '-' or
   '/', the item before it (if any) is not a literal word character, the item after it is a
   literal word character.  [prev] stands for "a word character precedes index 0". *)
Definition lit_at (l : istr) (i : nat) : option char :=
  match nth_error l i with Some (Lit c) => Some c | _ => None end.
Definition prev_word_at (w : char -> bool) (prev : bool) (l : istr) (i : nat) : bool :=
  match i with
  | O => prev
  | S j => match lit_at l j with Some p => w p | None => false end
  end.
Definition is_param (w : char -> bool) (prev : bool) (l : istr) (i : nat) : bool :=
  match lit_at l i with
  | Some c => is_dash c && negb (prev_word_at w prev l i)
              && match lit_at l (S i) with Some d => w d | None => false end
  | None => false
  end.
Definition is_variant (w : char -> bool) (prev : bool) (l x : istr) : Prop :=
  length x = length l /\
  forall i it, nth_error l i = Some it ->
    if is_param w prev l i then exists d, In d dashes /\ nth_error x i = Some (Lit d)
    else nth_error x i = Some it.

(* the [prev] of the position behind the item *)
Definition word_item (w : char -> bool) (it : item) : bool :=
  match it with Lit c => w c | _ => false end.

Lemma is_param_shift w prev it l i :
  is_param w prev (it :: l) (S i) = is_param w (word_item w it) l i.
Proof.
  unfold is_param, lit_at. cbn [nth_error].
  destruct (nth_error l i) as [[c| | |n]|]; try reflexivity.
  destruct i; cbn [prev_word_at]; unfold lit_at; cbn [nth_error]; destruct it; reflexivity.
Qed.

Lemma is_param_0 w prev it l :
  is_param w prev (it :: l) 0 =
  match it with Lit c => is_dash c && negb prev && next_is_word w l | _ => false end.
Proof. destruct it as [c| | |n]; try reflexivity. destruct l as [|[d| | |n] l]; reflexivity. Qed.

Lemma is_dash_in c : is_dash c = true -> In c dashes.
Proof.
  unfold is_dash. rewrite orb_true_iff, !N.eqb_eq. intros [->| ->]; simpl; auto.
Qed.

Lemma variants_lit w prev c l :
  variants w prev (Lit c :: l) =
  if is_dash c && negb prev && next_is_word w l
  then flat_map (fun d => map (cons (Lit d)) (variants w false l)) dashes
  else map (cons (Lit c)) (variants w (w c) l).
Proof. reflexivity. Qed.

(* a dash is not a word character ([Hw]): behind a parameter dash [word_item w it] is the [false]
   that [variants] passes on *)
Lemma variants_cons w (Hw : w c_dash = false /\ w c_slash = false) prev it l :
  variants w prev (it :: l) =
  if is_param w prev (it :: l) 0
  then flat_map (fun d => map (cons (Lit d)) (variants w (word_item w it) l)) dashes
  else map (cons it) (variants w (word_item w it) l).
Proof.
  rewrite is_param_0. destruct it as [c| | |n]; try reflexivity. rewrite variants_lit. cbn [word_item].
  destruct (is_dash c) eqn:C; [|reflexivity]. replace (w c) with false; [reflexivity|].
  apply orb_true_iff in C. destruct Hw, C as [C|C]; apply N.eqb_eq in C; subst c; auto.
Qed.

Lemma is_variant_cons w prev it l x0 y :
  is_variant w prev (it :: l) (x0 :: y) <->
  (if is_param w prev (it :: l) 0 then exists d, In d dashes /\ x0 = Lit d else x0 = it) /\
  is_variant w (word_item w it) l y.
Proof.
  unfold is_variant. split.
  - intros [Hl H]. split.
    + specialize (H 0%nat it eq_refl). destruct (is_param w prev (it :: l) 0).
      * destruct H as [d [Hd E]]. exists d. split; [exact Hd|]. inversion E. reflexivity.
      * inversion H. reflexivity.
    + split; [simpl in Hl; lia|]. intros i it' E. specialize (H (S i) it' E).
      rewrite is_param_shift in H. exact H.
  - intros [H0 [Hl H]]. split; [simpl; lia|]. intros [|i] it' E.
    + inversion E; subst it'. destruct (is_param w prev (it :: l) 0).
      * destruct H0 as [d [Hd ->]]. exists d. auto.
      * subst. reflexivity.
    + rewrite is_param_shift. apply H. exact E.
Qed.

Theorem variants_spec w (Hw : w c_dash = false /\ w c_slash = false) :
  forall l prev x, In x (variants w prev l) <-> is_variant w prev l x.
Proof.
  induction l as [|it l IH]; intros prev x.
  - simpl. split.
    + intros [<-|[]]. split; [reflexivity|]. intros i it E. destruct i; discriminate E.
    + intros [Hl _]. destruct x; [auto | discriminate Hl].
  - rewrite (variants_cons w Hw). destruct x as [|x0 y].
    + split; [intros H; exfalso | intros [Hl _]; discriminate Hl].
      destruct (is_param w prev (it :: l) 0); [apply in_flat_map in H as [d [_ H]]|];
        apply in_map_iff in H as [z [E _]]; discriminate E.
    + rewrite is_variant_cons, <- IH. destruct (is_param w prev (it :: l) 0).
      * rewrite in_flat_map. split.
        -- intros [d [Hd H]]. apply in_map_iff in H as [z [E Hz]]. inversion E; subst. eauto.
        -- intros [[d [Hd ->]] H]. exists d. auto using in_map.
      * rewrite in_map_iff. split.
        -- intros [z [E Hz]]. inversion E; subst. auto.
        -- intros [-> H]. eauto.
Qed.

Lemma NoDup_map_cons {A} (a : A) l : NoDup l -> NoDup (map (cons a) l).
Proof.
  induction 1 as [|x l Hx Hl IH]; simpl; constructor; auto.
  rewrite in_map_iff. intros [y [E Hy]]. inversion E; subst. auto.
Qed.
Lemma NoDup_heads (ds : list char) (L : list istr) :
  NoDup ds -> NoDup L -> NoDup (flat_map (fun d => map (cons (Lit d)) L) ds).
Proof.
  intros Hd HL. induction Hd as [|d ds Hnd Hd IH]; simpl; [constructor|].
  apply NoDup_app_intro; [apply NoDup_map_cons; exact HL | exact IH |].
  intros x H1 H2. apply in_map_iff in H1 as [y [<- _]].
  apply in_flat_map in H2 as [e [He H2]]. apply in_map_iff in H2 as [z [E2 _]].
  inversion E2; subst. auto.
Qed.

Lemma NoDup_dashes : NoDup dashes.
Proof.
  unfold dashes. repeat constructor; simpl; intros H;
    repeat (destruct H as [H|H]; [discriminate H|]); exact H.
Qed.
Theorem variants_NoDup w : forall l prev, NoDup (variants w prev l).
Proof.
  induction l as [|it l IH]; intros prev; [repeat constructor; auto|].
  destruct it as [c| | |n]; [rewrite variants_lit; destruct (_ && _)|..]; cbn [variants];
    try (apply NoDup_map_cons; apply IH).
  apply NoDup_heads; [apply NoDup_dashes | apply IH].
Qed.

Definition count_params (w : char -> bool) (prev : bool) (l : istr) : nat :=
  length (filter (is_param w prev l) (seq 0 (length l))).
Lemma flat_map_const_length {A B} (f : A -> list B) (l : list A) n :
  (forall a, length (f a) = n) -> length (flat_map f l) = (length l * n)%nat.
Proof.
  intros H. induction l as [|a l IH]; [reflexivity|]. simpl. rewrite app_length, H, IH. reflexivity.
Qed.
Lemma count_params_cons w prev it l :
  count_params w prev (it :: l) =
  ((if is_param w prev (it :: l) 0 then 1 else 0) + count_params w (word_item w it) l)%nat.
Proof.
  unfold count_params. cbn [length seq]. rewrite <- seq_shift. cbn [filter].
  rewrite filter_map_comm, (filter_ext _ _ (fun i => is_param_shift w prev it l i)).
  destruct (is_param w prev (it :: l) 0); cbn [length]; rewrite map_length; reflexivity.
Qed.
Theorem variants_length w (Hw : w c_dash = false /\ w c_slash = false) :
  forall l prev, length (variants w prev l) = Nat.pow 5 (count_params w prev l).
Proof.
  induction l as [|it l IH]; intros prev; [reflexivity|].
  rewrite count_params_cons, (variants_cons w Hw). destruct (is_param w prev (it :: l) 0).
  - rewrite (flat_map_const_length _ _ (length (variants w (word_item w it) l))) by (intros; apply map_length).
    rewrite IH. cbn [dashes length Nat.add Nat.pow]. lia.
  - rewrite map_length, IH. reflexivity.
Qed.

Lemma take_name_spec l : forall acc nm rest, take_name l acc = Some (nm, rest) ->
  exists x, nm = acc ++ x /\ l = map Lit x ++ Lit c_pct :: rest /\ ~ In c_pct x.
Proof.
  induction l as [|i l IH]; intros acc nm rest H; [discriminate H|].
  destruct i as [c| | |n]; try discriminate H. cbn [take_name] in H.
  destruct (N.eqb c c_pct) eqn:E.
  - apply N.eqb_eq in E. subst c. inversion H; subst. exists []. rewrite app_nil_r. auto.
  - apply IH in H as (x & -> & -> & H3). exists (c :: x). rewrite <- app_assoc. repeat split.
    intros [->|K]; [rewrite N.eqb_refl in E; discriminate E | exact (H3 K)].
Qed.

(* one step of [sp_expand_go]: the item it emits and what is left to read *)
Definition expand_step (l : istr) : option (item * istr) :=
  match l with
  | [] => None
  | Lit c :: l' =>
      if N.eqb c c_pct then
        match take_name l' [] with
        | Some (x :: name, rest) => Some (Ph (x :: name), rest)
        | _ => Some (Lit c, l')
        end
      else if N.eqb c c_bs then
        match l' with
        | Lit d :: l'' => if N.eqb d c_pct then Some (Lit c_pct, l'') else Some (Lit c, l')
        | _ => Some (Lit c, l')
        end
      else Some (Lit c, l')
  | i :: l' => Some (i, l')
  end.

Lemma sp_expand_go_S f l :
  sp_expand_go (S f) l = match expand_step l with Some (j, l') => j :: sp_expand_go f l' | None => [] end.
Proof.
  destruct l as [|[c| | |n] l]; try reflexivity. cbn [sp_expand_go expand_step].
  destruct (N.eqb c c_pct); [destruct (take_name l []) as [[[|x name] rest]|]; reflexivity|].
  destruct (N.eqb c c_bs); [|reflexivity].
  destruct l as [|[d| | |m] l']; try reflexivity. destruct (N.eqb d c_pct); reflexivity.
Qed.

Inductive expands : istr -> item -> istr -> Prop :=
| expands_item i l : expands (i :: l) i l
| expands_escape l : expands (Lit c_bs :: Lit c_pct :: l) (Lit c_pct) l
| expands_name n l : n <> [] -> ~ In c_pct n -> expands (Lit c_pct :: map Lit n ++ Lit c_pct :: l) (Ph n) l.

Lemma expand_step_spec l j l' : expand_step l = Some (j, l') -> expands l j l'.
Proof.
  destruct l as [|i l]; [discriminate|].
  assert (H1 : Some (i, l) = Some (j, l') -> expands (i :: l) j l') by (intros [= <- <-]; constructor).
  destruct i as [c| | |m]; try exact H1. cbn [expand_step]. destruct (N.eqb c c_pct) eqn:Ec.
  - destruct (take_name l []) as [[[|x name] rest]|] eqn:T; try exact H1.
    intros [= <- <-]. apply N.eqb_eq in Ec. subst c. apply take_name_spec in T as (y & E & -> & T). cbn [app] in E. subst y.
    apply expands_name; [discriminate | exact T].
  - destruct (N.eqb c c_bs) eqn:Eb; [|exact H1]. destruct l as [|[d| | |m] l'']; try exact H1.
    destruct (N.eqb d c_pct) eqn:Ed; [|exact H1]. intros [= <- <-]. apply N.eqb_eq in Eb, Ed. subst c d. constructor.
Qed.

Lemma expand_step_shorter l j l' : expand_step l = Some (j, l') -> (length l' < length l)%nat.
Proof.
  intros H. apply expand_step_spec in H. destruct H; cbn [length]; rewrite ?app_length; cbn [length]; lia.
Qed.

Lemma sp_expand_go_fuel : forall f1 f2 l, (length l < f1)%nat -> (length l < f2)%nat ->
  sp_expand_go f1 l = sp_expand_go f2 l.
Proof.
  induction f1 as [|f1 IH]; intros [|f2] l H1 H2; try lia. rewrite !sp_expand_go_S.
  destruct (expand_step l) as [[j l']|] eqn:E; [|reflexivity].
  apply expand_step_shorter in E. f_equal. apply IH; lia.
Qed.

Lemma sp_expand_step l :
  sp_expand l = match expand_step l with Some (j, l') => j :: sp_expand l' | None => [] end.
Proof.
  unfold sp_expand at 1. rewrite sp_expand_go_S. destruct (expand_step l) as [[j l']|] eqn:E; [|reflexivity].
  apply expand_step_shorter in E. f_equal. apply sp_expand_go_fuel; lia.
Qed.

Definition ph_source (l : istr) (n : str) : Prop :=
  In (Ph n) l \/
  (n <> [] /\ ~ In c_pct n /\ exists pre post, l = pre ++ Lit c_pct :: map Lit n ++ Lit c_pct :: post).

Lemma ph_source_app p l n : ph_source l n -> ph_source (p ++ l) n.
Proof.
  intros [H|(H1 & H2 & pre & post & ->)]; [left; apply in_or_app; auto|].
  right. repeat split; auto. exists (p ++ pre), post. apply app_assoc.
Qed.

Theorem sp_expand_sound : forall f l n, In (Ph n) (sp_expand_go f l) -> ph_source l n.
Proof.
  induction f as [|f IH]; intros l n; [intros H; left; exact H|]. rewrite sp_expand_go_S.
  destruct (expand_step l) as [[j l']|] eqn:E; [|intros []].
  apply expand_step_spec in E. intros [->|H%IH].
  - (* the item this step emits *)
    inversion E; subst; [left; left; reflexivity|]. right. repeat split; auto. exists [], l'. reflexivity.
  - (* a later one: its source lies in what the step leaves, behind what it reads *)
    destruct E as [i l'|l'|m l' _ _].
    + exact (ph_source_app [i] _ _ H).
    + exact (ph_source_app [_; _] _ _ H).
    + apply (ph_source_app [_]), (ph_source_app (map Lit m)), (ph_source_app [_]), H.
Qed.

Definition lit_pct (i : item) : bool := match i with Lit c => N.eqb c c_pct | _ => false end.

Lemma expand_step_no_pct i l : existsb lit_pct (i :: l) = false -> expand_step (i :: l) = Some (i, l).
Proof.
  cbn [existsb]. intros H. apply orb_false_iff in H as [H1 H2].
  destruct i as [c| | |m]; try reflexivity. cbn [expand_step lit_pct] in *. rewrite H1.
  destruct (N.eqb c c_bs); [|reflexivity]. destruct l as [|[d| | |m] l']; try reflexivity.
  cbn [existsb lit_pct] in H2. apply orb_false_iff in H2 as [-> _]. reflexivity.
Qed.

Theorem sp_expand_no_pct : forall f l, existsb lit_pct l = false -> sp_expand_go f l = l.
Proof.
  induction f as [|f IH]; intros [|i l] H; try reflexivity.
  rewrite sp_expand_go_S, expand_step_no_pct by exact H. rewrite IH; [reflexivity|].
  apply orb_false_iff in H as [_ H]. exact H.
Qed.
