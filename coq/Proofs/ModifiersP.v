(* Proofs about the model of the modifier chain (Model/Modifiers.v): no Python crash escapes,
   'all' / 'neq' only touch the flags, and the model refines the item-level specification
   (Spec/ModSpec.v). *)
From Coq Require Import NArith ZArith List Bool Lia.
From PS Require Import Base.Chars Base.Outcome Model.SString Model.Modifiers
                       Spec.Items Spec.ModSpec Proofs.SStringP Proofs.ModSpecP Proofs.CharsP Proofs.OutcomeP.
Import ListNotations.
Open Scope N_scope.

Section GvalInd.
  Variable S : Type.
  Variable P : gval S -> Prop.
  Hypothesis Ha : forall a, P (VAtom a).
  Hypothesis He : forall l, Forall P l -> P (VExp l).
  Fixpoint gval_ind' (v : gval S) : P v :=
    match v with
    | VAtom a => Ha a
    | VExp l => He l ((fix go (l : list (gval S)) : Forall P l :=
                         match l with
                         | [] => Forall_nil P
                         | x :: r => Forall_cons x (gval_ind' x) (go r)
                         end) l)
    end.
End GvalInd.

Lemma apply_val_exp O field applied m l :
  apply_val O field applied m (VExp l) =
  obind (flat_mapM (apply_val O field applied m) l) (fun r => Ok [VExp r]).
Proof.
  cbn [apply_val]. f_equal. induction l as [|x r IH]; [reflexivity|]. cbn [flat_mapM]. rewrite <- IH. reflexivity.
Qed.
Lemma sp_apply_exp O hf first m l :
  sp_apply O hf first m (VExp l) = option_map (fun r => [VExp r]) (sp_flat (sp_apply O hf first m) l).
Proof.
  cbn [sp_apply]. f_equal. induction l as [|x r IH]; [reflexivity|]. cbn [sp_flat]. rewrite <- IH. reflexivity.
Qed.

Definition is_all (m : modifier) : bool := match m with MAll => true | _ => false end.
Definition is_neq (m : modifier) : bool := match m with MNeq => true | _ => false end.
Definition is_list_mod (m : modifier) : bool := is_all m || is_neq m.

Definition step_values (O : oracles) (field : option str) (applied : nat) (m : modifier)
                       (vs : list mval) : outcome (list mval) :=
  if is_list_mod m then Ok vs else flat_mapM (apply_val O field applied m) vs.
Fixpoint chain_values (O : oracles) (field : option str) (applied : nat) (ms : list modifier)
                      (vs : list mval) : outcome (list mval) :=
  match ms with
  | [] => Ok vs
  | m :: ms' => obind (step_values O field applied m vs) (chain_values O field (S applied) ms')
  end.

Lemma step_closed O field applied m st :
  step O field applied m st =
  obind (step_values O field applied m (values st))
        (fun vs => Ok {| values := vs; link_and := link_and st || is_all m; negated := negated st || is_neq m |}).
Proof. destruct m; cbn; rewrite ?orb_true_r, ?orb_false_r; reflexivity. Qed.

(* the chain: its values are computed without the flags, its flags without the values *)
Theorem run_chain_closed O field : forall ms applied st,
  run_chain O field applied ms st =
  obind (chain_values O field applied ms (values st))
        (fun vs => Ok {| values := vs; link_and := link_and st || existsb is_all ms;
                         negated := negated st || existsb is_neq ms |}).
Proof.
  induction ms as [|m ms IH]; intros applied st; cbn [run_chain chain_values existsb obind].
  - rewrite !orb_false_r. destruct st; reflexivity.
  - rewrite step_closed. destruct (step_values O field applied m (values st)); [|reflexivity..].
    cbn [obind]. rewrite IH. cbn [values link_and negated]. rewrite !orb_assoc. reflexivity.
Qed.

Lemma compile_safe O v a b c : safe (compile O v a b c).
Proof. unfold compile. destruct (re_ok O _); exact I. Qed.

Lemma modify_safe O field applied m a :
  type_check m a = true -> safe (modify O field applied m a).
Proof.
  (* the one Crash of modify is its last clause, for the pairs type_check refuses: every accepted pair in turn *)
  intros H.
  destruct m as [| | | | | | |p|f| | | | |o| | | | | |]; try destruct f;
  destruct a; simpl in H; try discriminate H; cbn [modify ok_atom];
  repeat match goal with
         | |- safe (compile _ _ _ _ _) => apply compile_safe
         | |- safe (if ?b then _ else _) => destruct b
         | |- safe (match ?x with _ => _ end) => destruct x
         end; try exact I.
Qed.

Lemma flat_mapM_safe {A B} (f : A -> outcome (list B)) l :
  Forall (fun x => safe (f x)) l -> safe (flat_mapM f l).
Proof.
  induction 1 as [|x r Hx _ IH]; [exact I|]. cbn [flat_mapM].
  apply obind_safe; [exact Hx|]. intros a. apply obind_safe; [exact IH | intros; exact I].
Qed.

Lemma apply_val_safe O field applied m : forall v, safe (apply_val O field applied m v).
Proof.
  induction v as [a|l IH] using gval_ind'.
  - cbn [apply_val]. destruct (type_check m a) eqn:E; [|exact I].
    apply obind_safe; [apply modify_safe; exact E | intros; exact I].
  - rewrite apply_val_exp. apply obind_safe; [apply flat_mapM_safe; exact IH | intros; exact I].
Qed.

Lemma chain_values_safe O field : forall ms applied vs,
  safe (chain_values O field applied ms vs).
Proof.
  induction ms as [|m ms IH]; intros; [exact I|]. cbn [chain_values].
  apply obind_safe; [|intros; apply IH]. unfold step_values. destruct (is_list_mod m); [exact I|].
  apply flat_mapM_safe, Forall_forall. intros; apply apply_val_safe.
Qed.

Lemma lookup_all_safe ids : safe (lookup_all ids).
Proof.
  induction ids as [|i r IH]; [exact I|]. cbn [lookup_all].
  destruct (lookup_modifier modifier_mapping i); [|exact I].
  apply obind_safe; [exact IH | intros; exact I].
Qed.

Lemma sigma_value_ensures C (hr : bool) (Q : mval -> Prop) y :
  (forall t, y = YStr t -> Q (VAtom (AStr false (if hr then from_str t else parse true t)))) ->
  (forall a, match a with AStr _ _ | ARe _ _ _ _ => False | _ => True end -> Q (VAtom a)) ->
  ensures C Q (sigma_value hr y).
Proof.
  intros Hs Ha. destruct y as [s|z|n d| |b| |]; cbn [sigma_value sigma_number];
    [apply Hs; reflexivity | | | exact I | apply Ha; exact I | apply Ha; exact I | exact I].
  - cbv zeta. destruct (_ <=? _)%Z; [exact I|]. destruct (_ =? _)%Z; apply Ha; exact I.
  - destruct (Pos.eqb d 1); apply Ha; exact I.
Qed.

Theorem from_mapping_nocrash O key val : forall c, from_mapping O key val <> Crash c.
Proof.
  apply safe_no_crash. unfold from_mapping. destruct (split_key key) as [field ids].
  apply obind_safe; [apply lookup_all_safe|]. intros ms.
  apply obind_safe; [apply (traverse_safe (sigma_value _)); intros; apply sigma_value_ensures; intros; exact I|].
  intros vals. rewrite run_chain_closed. apply obind_safe; [apply chain_values_safe | intros; exact I].
Qed.

Lemma step_all O field applied st :
  step O field applied MAll st = Ok {| values := values st; link_and := true; negated := negated st |}.
Proof. reflexivity. Qed.
Lemma step_neq O field applied st :
  step O field applied MNeq st = Ok {| values := values st; link_and := link_and st; negated := true |}.
Proof. reflexivity. Qed.

Theorem run_chain_flags O field ms applied st st' :
  run_chain O field applied ms st = Ok st' ->
  link_and st' = (link_and st || existsb is_all ms) /\ negated st' = (negated st || existsb is_neq ms).
Proof. rewrite run_chain_closed. intros H. apply obind_ok in H as (vs & _ & [= <-]). split; reflexivity. Qed.

(* the values (and whether the chain is rejected) do not depend on the flags *)
Definition same_values (a b : outcome item_state) : Prop :=
  match a, b with
  | Ok x, Ok y => values x = values y
  | SigmaErr c, SigmaErr d => c = d
  | Crash c, Crash d => c = d
  | _, _ => False
  end.

Theorem run_chain_values_indep O field ms applied st1 st2 :
  values st1 = values st2 ->
  same_values (run_chain O field applied ms st1) (run_chain O field applied ms st2).
Proof. intros E. rewrite !run_chain_closed, E. destruct (chain_values _ _ _ _ _); reflexivity. Qed.

(* well-formed part lists: no empty string part, no two adjacent string parts.  The parser and the string
   operations of every modifier but the encoding ones produce such lists; SigmaString.from_str("") does not, and
   neither does 'utf16', which puts the byte-order mark in a string part of its own in front of the recoded parts. *)
Definition str_empty (s : str) : bool := match s with [] => true | _ => false end.
Definition starts_pstr (v : sstring) : bool := match v with PStr _ :: _ => true | _ => false end.
Fixpoint wfp (v : sstring) : bool :=
  match v with
  | [] => true
  | PStr s :: v' => negb (str_empty s) && negb (starts_pstr v') && wfp v'
  | _ :: v' => wfp v'
  end.
Definition nonempty_part (p : part) : bool := match p with PStr [] => false | _ => true end.
Definition no_empty (v : sstring) : bool := forallb nonempty_part v.

Lemma items_merge v : items (merge_strs v) = items v.
Proof. exact (items_merge_plain v). Qed.

Lemma wfp_pstr s v :
  wfp (PStr s :: v) = true <-> s <> [] /\ starts_pstr v = false /\ wfp v = true.
Proof.
  cbn [wfp]. rewrite !andb_true_iff, !negb_true_iff. destruct s; cbn [str_empty]; intuition congruence.
Qed.
Lemma wfp_tail p v : wfp (p :: v) = true -> wfp v = true.
Proof. destruct p; [rewrite wfp_pstr; tauto | auto..]. Qed.
Lemma wfp_no_empty v : wfp v = true -> no_empty v = true.
Proof.
  induction v as [|p v IH]; [reflexivity|]. intros H. cbn [no_empty forallb]. apply andb_true_iff. split.
  - destruct p as [[|c s]| | |n]; try reflexivity. discriminate H.
  - apply IH. exact (wfp_tail _ _ H).
Qed.

Lemma wfp_app X Y : wfp X = true -> wfp Y = true -> starts_pstr Y = false -> wfp (X ++ Y) = true.
Proof.
  intros HX HY HS. induction X as [|p X IH]; [exact HY|].
  specialize (IH (wfp_tail _ _ HX)). destruct p as [s| | |n]; try exact IH.
  cbn [app]. apply wfp_pstr in HX as (Hs & Hp & _). apply wfp_pstr. repeat split; [exact Hs | | exact IH].
  destruct X; [exact HS | exact Hp].
Qed.

Lemma merge_wfp_id v : wfp v = true -> merge_strs v = v.
Proof.
  induction v as [|p v IH]; [reflexivity|]. intros H. cbn [merge_strs]. rewrite IH by exact (wfp_tail _ _ H).
  destruct p as [s| | |n]; try reflexivity. apply wfp_pstr in H as (_ & Hs & _).
  destruct v as [|[b| | |m] r]; try reflexivity. discriminate Hs.
Qed.

Lemma merge_no_empty_wfp v : no_empty v = true -> wfp (merge_strs v) = true.
Proof.
  induction v as [|p v IH]; [reflexivity|]. cbn [no_empty forallb]. rewrite andb_true_iff. intros [Hp Hv].
  specialize (IH Hv). destruct p as [a| | |n]; cbn [merge_strs]; try exact IH.
  destruct a as [|c a]; [discriminate Hp|].
  destruct (merge_strs v) as [|[b| | |m] r]; try exact IH.
  apply wfp_pstr in IH as (_ & IH). apply wfp_pstr. split; [discriminate | exact IH].
Qed.

Lemma no_empty_app a b : no_empty (a ++ b) = no_empty a && no_empty b.
Proof. apply forallb_app. Qed.

Lemma canon_go_wfp l : forall acc, wfp (canon_go l acc) = true.
Proof.
  induction l as [|i l IH]; intros acc.
  - destruct acc; reflexivity.
  - destruct i as [c| | |n]; cbn [canon_go]; try apply IH;
      (destruct acc as [|a acc]; cbn [flush app wfp str_empty starts_pstr negb andb]; apply IH).
Qed.

Lemma parse_wfp esc s : wfp (parse esc s) = true.
Proof. rewrite parse_read. apply canon_go_wfp. Qed.

(* negb (contains_placeholder v), by conversion: parse_no_ph relies on it *)
Definition no_ph (v : sstring) : bool := negb (existsb is_ph v).
(* no placeholder carrying the internal name used by windash *)
Definition no_wd_ph (v : sstring) : bool :=
  forallb (fun p => match p with PPh n => negb (str_eqb n windash_name) | _ => true end) v.
Lemma no_ph_cons p v : no_ph (p :: v) = true <-> is_ph p = false /\ no_ph v = true.
Proof. unfold no_ph. cbn [existsb]. rewrite !negb_true_iff. apply orb_false_iff. Qed.
Lemma no_ph_no_wd_ph v : no_ph v = true -> no_wd_ph v = true.
Proof.
  induction v as [|p v IH]; [reflexivity|]. rewrite no_ph_cons. intros [H1 H2].
  cbn [no_wd_ph forallb]. fold (no_wd_ph v). rewrite (IH H2). destruct p; try reflexivity. discriminate H1.
Qed.
Lemma no_ph_merge v : no_ph (merge_strs v) = no_ph v.
Proof.
  unfold no_ph. f_equal.
  induction v as [|p v IH]; [reflexivity|]. destruct p as [a| | |n]; cbn [merge_strs existsb is_ph]; rewrite <- ?IH; try reflexivity.
  destruct (merge_strs v) as [|[b| | |m] r]; reflexivity.
Qed.

Lemma canon_go_no_ph l : forall acc,
  existsb (fun i => match i with Ph _ => true | _ => false end) l = false -> no_ph (canon_go l acc) = true.
Proof.
  unfold no_ph. induction l as [|i l IH]; intros acc H; [destruct acc; reflexivity|].
  destruct i as [c| | |n]; try discriminate H; cbn [canon_go]; [exact (IH _ H) | ..];
    destruct acc; exact (IH [] H).
Qed.
Lemma iparse_no_ph s : existsb (fun i => match i with Ph _ => true | _ => false end) (iparse s) = false.
Proof.
  (* [b]: a backslash has been read and not yet accounted for *)
  enough (G : forall b : bool, existsb (fun i => match i with Ph _ => true | _ => false end)
                                       (iparse (if b then c_bs :: s else s)) = false) by exact (G false).
  induction s as [|c s IH]; intros [|]; try reflexivity; cbn [iparse].
  - change (N.eqb c_bs c_bs) with true. cbv iota. destruct (is_special c || N.eqb c c_bs); exact (IH false).
  - destruct (N.eqb c c_bs) eqn:E; [apply N.eqb_eq in E; subst c; exact (IH true)|].
    destruct (is_special c); [unfold special_item; destruct (N.eqb c c_star)|]; exact (IH false).
Qed.

Lemma parse_no_ph esc s : no_ph (parse esc s) = true.
Proof. apply negb_true_iff, (parse_placeholder_free esc s). Qed.

Lemma sadd_items a b : items (sadd a b) = items a ++ items b.
Proof. unfold sadd. rewrite items_merge. apply items_app. Qed.
Lemma sadd_wfp a b : no_empty a = true -> no_empty b = true -> wfp (sadd a b) = true.
Proof. intros A B. apply merge_no_empty_wfp. rewrite no_empty_app, A, B. reflexivity. Qed.
Lemma sadd_no_ph a b : no_ph (sadd a b) = no_ph a && no_ph b.
Proof. unfold sadd. rewrite no_ph_merge. unfold no_ph. rewrite existsb_app. apply negb_orb. Qed.

(* an empty string part at the end, beside a wildcard, hides it from the tests of the code (starts_multi,
   ends_multi) and not from the items: hence [no_empty] *)
Lemma starts_multi_items v : no_empty v = true ->
  starts_multi v = match items v with Multi :: _ => true | _ => false end.
Proof. destruct v as [|[[|c s]| | |n] v]; try reflexivity. discriminate. Qed.

Lemma ends_multi_item_lits s : ends_multi_item (map Lit s) = false.
Proof. induction s as [|c s IH]; [reflexivity|]. destruct s; [reflexivity|exact IH]. Qed.
Lemma items_nonempty p v : no_empty (p :: v) = true -> items (p :: v) <> [].
Proof. destruct p as [[|c s]| | |n]; discriminate. Qed.

Lemma ends_multi_items v : no_empty v = true -> ends_multi v = ends_multi_item (items v).
Proof.
  induction v as [|p v IH]; [reflexivity|]. intros H.
  destruct v as [|q v'].
  - rewrite items_cons. cbn [items flat_map]. rewrite app_nil_r.
    destruct p as [[|c s]| | |n]; try reflexivity.
    symmetry. apply (ends_multi_item_lits (c :: s)).
  - apply andb_true_iff in H as [_ Hv].
    change (ends_multi (p :: q :: v')) with (ends_multi (q :: v')). rewrite IH by exact Hv.
    rewrite (items_cons p). symmetry. apply ends_multi_item_app, items_nonempty, Hv.
Qed.

Theorem add_multi_front_items v : no_empty v = true -> items (add_multi_front v) = sp_front (items v).
Proof.
  intros H. unfold add_multi_front, sp_front. rewrite (starts_multi_items v H).
  destruct (items v) as [|[c| | |n] l] eqn:E; rewrite ?sadd_items, ?E; reflexivity.
Qed.
Theorem add_multi_back_items v : no_empty v = true -> items (add_multi_back v) = sp_back (items v).
Proof.
  intros H. unfold add_multi_back, sp_back. rewrite (ends_multi_items v H).
  destruct (ends_multi_item (items v)); [reflexivity | apply sadd_items].
Qed.
Lemma add_multi_front_wfp v : wfp v = true -> wfp (add_multi_front v) = true.
Proof.
  intros H. unfold add_multi_front. destruct (starts_multi v); [exact H|].
  apply sadd_wfp; [reflexivity | apply wfp_no_empty, H].
Qed.
Lemma add_multi_back_wfp v : wfp v = true -> wfp (add_multi_back v) = true.
Proof.
  intros H. unfold add_multi_back. destruct (ends_multi v); [exact H|].
  apply sadd_wfp; [apply wfp_no_empty, H | reflexivity].
Qed.
Lemma add_multi_front_no_ph v : no_ph (add_multi_front v) = no_ph v.
Proof. unfold add_multi_front. destruct (starts_multi v); [reflexivity | apply sadd_no_ph]. Qed.
Lemma add_multi_back_no_ph v : no_ph (add_multi_back v) = no_ph v.
Proof. unfold add_multi_back. destruct (ends_multi v); [reflexivity|]. rewrite sadd_no_ph. apply andb_true_r. Qed.

Definition not_lit_head (l : istr) : bool := match l with Lit _ :: _ => false | _ => true end.
Lemma canon_go_flush l acc : not_lit_head l = true -> canon_go l acc = flush [] acc ++ canon l.
Proof.
  destruct l as [|[c| | |n] l]; try discriminate; intros _; [symmetry; apply app_nil_r | reflexivity..].
Qed.

Lemma variants_prev_irrelevant w l p q : not_lit_head l = true -> variants w p l = variants w q l.
Proof. destruct l as [|[c| | |n] l]; try reflexivity. discriminate. Qed.

Lemma rp_flush acc X : map items (rp (flush [] acc ++ X)) = map (app (map Lit acc)) (map items (rp X)).
Proof.
  destruct acc as [|c acc]; cbn [flush app]; [symmetry; apply map_id|].
  cbn [rp]. rewrite !map_map. reflexivity.
Qed.
Lemma rp_windash X :
  map items (rp (PPh windash_name :: X)) = flat_map (fun d => map (cons (Lit d)) (map items (rp X))) dashes.
Proof.
  cbn [rp]. rewrite str_eqb_refl, map_flat_map. apply flat_map_ext. intros d. rewrite !map_map. reflexivity.
Qed.

Lemma wd_scan_refines w R ir :
  not_lit_head ir = true -> map items (rp R) = variants w false ir ->
  forall e acc pw,
    map items (rp (wd_scan w pw e acc ++ R)) = map (app (map Lit acc)) (variants w pw (map Lit e ++ ir)).
Proof.
  intros Hnl HR. induction e as [|c e IH]; intros acc pw; cbn [wd_scan map app].
  - rewrite rp_flush, HR, (variants_prev_irrelevant w ir pw false Hnl). reflexivity.
  - rewrite variants_lit.
    (* the specification looks ahead into the items behind the part, the code only inside the part: they agree
       because [ir] does not begin with a literal *)
    replace (next_is_word w (map Lit e ++ ir)) with (match e with d :: _ => w d | [] => false end)
      by (destruct e; [destruct ir as [|[]]; [| discriminate Hnl |..] |]; reflexivity).
    destruct (is_dash c && negb pw && match e with d :: _ => w d | [] => false end).
    + rewrite <- app_assoc, rp_flush. cbn [app]. rewrite rp_windash, (IH [] false), map_id. reflexivity.
    + rewrite IH, map_map. apply map_ext. intros y. rewrite map_app, <- app_assoc. reflexivity.
Qed.

Lemma wfp_tail_not_lit s v : wfp (PStr s :: v) = true -> not_lit_head (items v) = true.
Proof.
  intros H. apply wfp_pstr in H as (_ & Hs & Hv).
  destruct v as [|[[|c t]| | |n] v]; try reflexivity; discriminate.
Qed.
Lemma rwp_items w : forall v, wfp v = true -> no_wd_ph v = true ->
  map items (rp (replace_with_placeholder w v)) = variants w false (items v).
Proof.
  induction v as [|p v IH]; intros Hw Hn; [reflexivity|].
  apply andb_true_iff in Hn as [Hp Hn]. specialize (IH (wfp_tail _ _ Hw) Hn).
  unfold replace_with_placeholder in *. cbn [flat_map]. rewrite items_cons.
  destruct p as [[|c s]| | |n]; [discriminate Hw | | | |apply negb_true_iff in Hp].
  - cbn [rwp_part]. rewrite (wd_scan_refines w _ _ (wfp_tail_not_lit _ _ Hw) IH). apply map_id.
  - cbn [rwp_part app rp part_items variants]. rewrite <- IH, !map_map. reflexivity.
  - cbn [rwp_part app rp part_items variants]. rewrite <- IH, !map_map. reflexivity.
  - cbn [rwp_part app rp part_items variants]. rewrite Hp, <- IH, !map_map. reflexivity.
Qed.

Lemma rp_no_ph X : no_ph X = true -> rp X = [X].
Proof.
  induction X as [|p X IH]; [reflexivity|]. rewrite no_ph_cons. intros [Hp HX].
  destruct p; try discriminate Hp; cbn [rp]; rewrite IH by exact HX; reflexivity.
Qed.

Lemma wd_scan_no_match w : forall e pw acc,
  existsb is_ph (wd_scan w pw e acc) = false -> wd_scan w pw e acc = flush [] (acc ++ e).
Proof.
  induction e as [|c e IH]; intros pw acc H; [rewrite app_nil_r; reflexivity|].
  cbn [wd_scan] in *. destruct (is_dash c && negb pw && match e with d :: _ => w d | [] => false end).
  - rewrite existsb_app in H. cbn [existsb is_ph] in H. rewrite orb_true_r in H. discriminate H.
  - rewrite (IH _ _ H), <- app_assoc. reflexivity.
Qed.
Lemma rwp_no_match w : forall v,
  existsb is_ph (replace_with_placeholder w v) = false -> replace_with_placeholder w v = v.
Proof.
  unfold replace_with_placeholder. induction v as [|p v IH]; intros H; [reflexivity|].
  cbn [flat_map] in *. rewrite existsb_app in H. apply orb_false_iff in H. destruct H as [H1 H2].
  rewrite (IH H2). destruct p as [[|c s]| | |n]; try reflexivity.
  cbn [rwp_part] in *. rewrite (wd_scan_no_match w _ _ _ H1). reflexivity.
Qed.

(* the shortcut of replace_placeholders for a string without placeholder returns what its general branch would *)
Lemma windash_eq w v : wfp v = true -> windash w v = map merge_strs (rp (replace_with_placeholder w v)).
Proof.
  intros Hw. unfold windash, replace_placeholders.
  destruct (existsb is_ph (replace_with_placeholder w v)) eqn:E; [reflexivity|].
  rewrite rp_no_ph by (unfold no_ph; rewrite E; reflexivity).
  rewrite (rwp_no_match w v E). cbn [map]. rewrite (merge_wfp_id v Hw). reflexivity.
Qed.

Theorem windash_items w v : wfp v = true -> no_wd_ph v = true ->
  map items (windash w v) = variants w false (items v).
Proof.
  intros Hw Hn. rewrite (windash_eq w v Hw), <- (rwp_items w v Hw Hn), map_map. apply map_ext, items_merge.
Qed.

Definition wd_part (p : part) : bool :=
  match p with PStr [] => false | PPh n => str_eqb n windash_name | _ => true end.

Lemma wd_scan_shape w : forall e pw acc, forallb wd_part (wd_scan w pw e acc) = true.
Proof.
  induction e as [|c e IH]; intros pw acc; cbn [wd_scan]; [destruct acc; reflexivity|].
  destruct (is_dash c && negb pw && match e with d :: _ => w d | [] => false end); [|apply IH].
  rewrite forallb_app. cbn [forallb wd_part]. rewrite str_eqb_refl, IH. destruct acc; reflexivity.
Qed.
Lemma rwp_shape w : forall v, no_empty v = true -> no_ph v = true ->
  forallb wd_part (replace_with_placeholder w v) = true.
Proof.
  unfold replace_with_placeholder. induction v as [|p v IH]; intros Hn Hp; [reflexivity|].
  apply andb_true_iff in Hn as [Hn1 Hn2]. apply no_ph_cons in Hp as [Hp1 Hp2].
  cbn [flat_map]. rewrite forallb_app, (IH Hn2 Hp2), andb_true_r.
  destruct p as [[|c s]| | |n]; try reflexivity; try discriminate. apply wd_scan_shape.
Qed.

Lemma rp_shape : forall X, forallb wd_part X = true ->
  Forall (fun x => no_empty x = true /\ no_ph x = true) (rp X).
Proof.
  induction X as [|p X IH]; intros H; [repeat constructor|].
  apply andb_true_iff in H as [Hp HX]. specialize (IH HX).
  assert (G: forall q, nonempty_part q = true -> is_ph q = false ->
             Forall (fun x => no_empty x = true /\ no_ph x = true) (map (cons q) (rp X))).
  { intros q Hq1 Hq2. apply Forall_map. revert IH. apply Forall_impl. intros y [A B].
    cbn [no_empty forallb]. rewrite Hq1, no_ph_cons. auto. }
  destruct p as [s| | |n]; cbn [rp]; try (apply G; [exact Hp | reflexivity]).
  cbn [wd_part] in Hp. rewrite Hp. apply Forall_flat_map, Forall_forall. intros d _. apply G; reflexivity.
Qed.

Theorem windash_good w v : wfp v = true -> no_ph v = true ->
  Forall (fun x => wfp x = true /\ no_ph x = true) (windash w v).
Proof.
  intros Hw Hp. rewrite (windash_eq w v Hw). apply Forall_map.
  generalize (rp_shape _ (rwp_shape w v (wfp_no_empty v Hw) Hp)). apply Forall_impl.
  intros y [A B]. split; [apply merge_no_empty_wfp, A | rewrite no_ph_merge; exact B].
Qed.

Definition ends_bs (s : str) : bool := N.eqb (last s 0) c_bs.
Definition starts_pct (s : str) : bool := match s with c :: _ => N.eqb c c_pct | [] => false end.

Lemma ends_bs_snoc s c : ends_bs (s ++ [c]) = N.eqb c c_bs.
Proof. unfold ends_bs. rewrite last_last. reflexivity. Qed.

Lemma unescape_cons2 a b s :
  unescape_pct (a :: b :: s) =
  if N.eqb a c_bs && N.eqb b c_pct then c_pct :: unescape_pct s else a :: unescape_pct (b :: s).
Proof. reflexivity. Qed.

Lemma unescape_app A X :
  ends_bs A && starts_pct X = false -> unescape_pct (A ++ X) = unescape_pct A ++ unescape_pct X.
Proof.
  induction A as [A IH] using (Wf_nat.induction_ltof1 _ (@length char)). unfold Wf_nat.ltof in IH. intros H.
  destruct A as [|a [|b A]]; [reflexivity|..].
  - destruct X as [|x X]; [reflexivity|]. unfold ends_bs in H. cbn [last starts_pct] in H. cbn [app unescape_pct].
    destruct (N.eqb a c_bs); cbn [andb] in *; [rewrite H|]; reflexivity.
  - change (ends_bs (a :: b :: A)) with (ends_bs (b :: A)) in H. cbn [app]. rewrite !unescape_cons2.
    destruct (N.eqb a c_bs && N.eqb b c_pct).
    + rewrite (IH A); [reflexivity | simpl; lia | destruct A; [reflexivity | exact H]].
    + change (b :: A ++ X) with ((b :: A) ++ X). rewrite (IH (b :: A)); [reflexivity | simpl; lia | exact H].
Qed.

Lemma take_name_find_pct s ir : not_lit_head ir = true -> forall acc,
  take_name (map Lit s ++ ir) acc =
  match find_pct s acc with Some (nm, rest) => Some (nm, map Lit rest ++ ir) | None => None end.
Proof.
  intros Hn. induction s as [|c s IH]; intros acc.
  - cbn. destruct ir as [|[x| | |n] ir]; try reflexivity. discriminate Hn.
  - cbn [map app take_name find_pct]. destruct (N.eqb c c_pct); [reflexivity | apply IH].
Qed.
Lemma find_pct_length s : forall acc nm rest, find_pct s acc = Some (nm, rest) -> (length rest < length s)%nat.
Proof.
  induction s as [|c s IH]; intros acc nm rest H; [discriminate H|]. cbn [find_pct] in H.
  destruct (N.eqb c c_pct).
  - inversion H; subst. simpl. lia.
  - apply IH in H. simpl. lia.
Qed.
Lemma sp_expand_nil : sp_expand [] = [].
Proof. reflexivity. Qed.
Lemma ip_scan_cons f pbs c s acc :
  ip_scan (S f) pbs (c :: s) acc =
  if N.eqb c c_pct && negb pbs then
    match find_pct s [] with
    | Some (x :: name, rest) => flush_u acc ++ PPh (x :: name) :: ip_scan f false rest []
    | _ => ip_scan f false s (acc ++ [c])
    end
  else ip_scan f (N.eqb c c_bs) s (acc ++ [c]).
Proof. reflexivity. Qed.

Lemma ip_fuel : forall n f1 f2 s pbs acc, (length s <= n)%nat -> (n < f1)%nat -> (n < f2)%nat ->
  ip_scan f1 pbs s acc = ip_scan f2 pbs s acc.
Proof.
  induction n as [|n IH]; intros [|f1] [|f2] s pbs acc Hl H1 H2; try lia;
    (destruct s as [|c s]; [reflexivity | simpl in Hl]); [lia|].
  rewrite !ip_scan_cons. destruct (N.eqb c c_pct && negb pbs); [|apply IH; lia].
  destruct (find_pct s []) as [[[|x name] rest]|] eqn:E; try (apply IH; lia).
  apply find_pct_length in E. do 2 f_equal. apply IH; lia.
Qed.

Lemma flush_u_flush acc : flush_u acc = flush [] (unescape_pct acc).
Proof. unfold flush_u. destruct (unescape_pct acc); reflexivity. Qed.

(* The scanner of the code (lookbehind, then replace on the segments) against the item-level reader, on a
   string part [s] in front of items [ir].  [A] is the text collected so far; the lookbehind flag says that
   it ends in a backslash, and the scanner is not between a backslash and the '%' it protects. *)
Lemma ip_scan_canon ir : not_lit_head ir = true -> forall f s, (length s < f)%nat -> forall A,
  ends_bs A && starts_pct s = false ->
  ip_scan f (ends_bs A) s A ++ canon (sp_expand ir) = canon_go (sp_expand (map Lit s ++ ir)) (unescape_pct A).
Proof.
  intros Hn. induction f as [f IH] using lt_wf_ind. intros s Hl A HA. destruct f as [|f]; [lia|].
  destruct s as [|c s]; [|simpl in Hl].
  { cbn [ip_scan map app]. rewrite flush_u_flush. symmetry. apply canon_go_flush. rewrite sp_expand_step.
    destruct ir as [|[]]; [reflexivity | discriminate Hn | reflexivity..]. }
  (* the character joins the collected text *)
  assert (STEP: forall d, ends_bs A && N.eqb d c_pct = false -> N.eqb d c_bs && starts_pct s = false ->
                ip_scan f (N.eqb d c_bs) s (A ++ [d]) ++ canon (sp_expand ir) =
                canon_go (Lit d :: sp_expand (map Lit s ++ ir)) (unescape_pct A)).
  { intros d H1 H2. rewrite <- (ends_bs_snoc A d) in *. rewrite IH, unescape_app by (lia || assumption). reflexivity. }
  rewrite ip_scan_cons. cbn [map app]. rewrite (sp_expand_step (Lit c :: _)). cbn [expand_step].
  destruct (N.eqb c c_pct) eqn:Ec.
  - (* '%': a placeholder if a name and a second '%' follow *)
    apply N.eqb_eq in Ec. subst c. cbn [starts_pct] in HA. rewrite N.eqb_refl, andb_true_r in HA.
    rewrite HA, (take_name_find_pct s ir Hn []). cbn [negb andb].
    destruct (find_pct s []) as [[[|x name] rest]|] eqn:E; try (apply (STEP c_pct); [rewrite HA|]; reflexivity).
    rewrite <- app_assoc, flush_u_flush. cbn [app canon_go]. do 2 f_equal.
    apply find_pct_length in E. apply (IH f ltac:(lia) rest ltac:(lia) []). reflexivity.
  - cbn [andb]. destruct (N.eqb c c_bs && starts_pct s) eqn:Eq.
    + (* "\%" is a literal '%' for both *)
      apply andb_true_iff in Eq as [Eb Es]. apply N.eqb_eq in Eb. subst c.
      destruct s as [|d s]; [discriminate Es|]. apply N.eqb_eq in Es. subst d.
      destruct f as [|f]; [simpl in Hl; lia|].
      rewrite N.eqb_refl, ip_scan_cons, andb_false_r. cbn [map app]. rewrite N.eqb_refl.
      rewrite <- (ends_bs_snoc (A ++ [c_bs]) c_pct).
      rewrite IH by (simpl in Hl; lia || (rewrite ends_bs_snoc; reflexivity)).
      rewrite <- app_assoc. cbn [app]. rewrite unescape_app by apply andb_false_r. reflexivity.
    + rewrite STEP by (exact Eq || (rewrite Ec; apply andb_false_r)). f_equal.
      destruct (N.eqb c c_bs); [|reflexivity]. cbn [andb] in Eq.
      destruct s as [|d s]; [destruct ir as [|[]]; [reflexivity | discriminate Hn | reflexivity..]|].
      cbn [map app starts_pct] in *. rewrite Eq. reflexivity.
Qed.

(* Model/Placeholder.v models SigmaString.insert_placeholders a second time (ph_go, for C17), and Spec/Expand.v
   reads it a second time (xread); no lemma relates them to the scanner and the reader here. *)
Theorem insert_placeholders_canon : forall v, wfp v = true ->
  insert_placeholders v = canon (sp_expand (items v)).
Proof.
  induction v as [|p v IH]; intros Hw; [reflexivity|].
  specialize (IH (wfp_tail _ _ Hw)). unfold insert_placeholders in *. cbn [flat_map]. rewrite IH, items_cons.
  destruct p as [s| | |n]; [|cbn [part_items app]; rewrite (sp_expand_step (_ :: _)); reflexivity..].
  exact (ip_scan_canon (items v) (wfp_tail_not_lit _ _ Hw) _ s (Nat.lt_succ_diag_r _) [] eq_refl).
Qed.
Theorem insert_placeholders_items v : wfp v = true -> items (insert_placeholders v) = sp_expand (items v).
Proof. intros H. rewrite (insert_placeholders_canon v H). apply items_canon. Qed.
Theorem insert_placeholders_wfp v : wfp v = true -> wfp (insert_placeholders v) = true.
Proof. intros H. rewrite (insert_placeholders_canon v H). apply canon_go_wfp. Qed.

Lemma firstn_prefix (p : str) : forall s, str_eqb (firstn (length p) s) p = prefixb p s.
Proof.
  induction p as [|x p IH]; intros s; [reflexivity|]. destruct s as [|y s]; [reflexivity|].
  cbn [length firstn str_eqb prefixb]. rewrite IH, (N.eqb_sym y x). reflexivity.
Qed.
Lemma str_eqb_rev a b : str_eqb (rev a) b = str_eqb a (rev b).
Proof.
  apply Bool.eq_true_iff_eq. rewrite !str_eqb_eq. split; intros H; subst; rewrite rev_involutive; reflexivity.
Qed.
Lemma skipn_suffix (p s : str) : str_eqb (skipn (length s - length p) s) p = suffixb p s.
Proof.
  unfold suffixb. rewrite <- (firstn_prefix (rev p) (rev s)), rev_length, firstn_rev.
  rewrite str_eqb_rev, rev_involutive. reflexivity.
Qed.
Lemma re_open_front_spec rs : re_open_front rs = negb (prefixb dotstar rs || prefixb [94] rs).
Proof.
  unfold re_open_front. rewrite negb_orb.
  rewrite <- (firstn_prefix dotstar rs), <- (firstn_prefix [94] rs). reflexivity.
Qed.
Lemma re_open_back_spec rs : re_open_back rs = negb (suffixb dotstar rs || suffixb [36] rs).
Proof.
  unfold re_open_back. rewrite negb_orb.
  rewrite <- (skipn_suffix dotstar rs), <- (skipn_suffix [36] rs). reflexivity.
Qed.

Definition core (m : modifier) : bool :=
  match m with MBase64 | MBase64Offset | MWide | MUtf16 | MUtf16be => false | _ => true end.
Definition is_expand (m : modifier) : bool := match m with MExpand => true | _ => false end.
Definition is_windash (m : modifier) : bool := match m with MWindash => true | _ => false end.
Definition has_field (f : option str) : bool := match f with Some _ => true | None => false end.

(* invariant of the values while the chain runs: well-formed parts; no placeholder before the
   first 'expand' ([nph] = no expand so far) *)
Definition good_str (nph : bool) (v : sstring) : bool := wfp v && (negb nph || no_ph v).
Definition good_atom (nph : bool) (a : atomv sstring) : bool :=
  match a with
  | AStr _ v => good_str nph v
  | ARe v _ _ _ => good_str nph v
  | _ => true
  end.
Fixpoint good (nph : bool) (v : mval) : bool :=
  match v with
  | VAtom a => good_atom nph a
  | VExp l => forallb (good nph) l
  end.

Lemma good_str_iff nph v : good_str nph v = true <-> wfp v = true /\ (nph = true -> no_ph v = true).
Proof. unfold good_str. rewrite andb_true_iff. destruct nph; cbn; intuition. Qed.

Lemma sadd_good_str nph a b : good_str nph a = true -> good_str nph b = true -> good_str nph (sadd a b) = true.
Proof.
  rewrite !good_str_iff, sadd_no_ph. intros [A1 A2] [B1 B2]. split.
  - apply sadd_wfp; apply wfp_no_empty; assumption.
  - intros E. rewrite A2, B2 by exact E. reflexivity.
Qed.

(* A string of the chain beside the specification's.  Every string operation of a modifier takes a pair so
   related to one so related, and the rules compose by [apply]. *)
Definition reads (nph : bool) (v : sstring) (l : istr) : Prop := items v = l /\ good_str nph v = true.

Lemma reads_items nph v : good_str nph v = true -> reads nph v (items v).
Proof. split; [reflexivity | assumption]. Qed.

Lemma front_reads nph v l : reads nph v l -> reads nph (add_multi_front v) (sp_front l).
Proof.
  intros [<- [W N]%good_str_iff]. split; [apply add_multi_front_items, wfp_no_empty, W|].
  apply good_str_iff. rewrite add_multi_front_no_ph. auto using add_multi_front_wfp.
Qed.
Lemma back_reads nph v l : reads nph v l -> reads nph (add_multi_back v) (sp_back l).
Proof.
  intros [<- [W N]%good_str_iff]. split; [apply add_multi_back_items, wfp_no_empty, W|].
  apply good_str_iff. rewrite add_multi_back_no_ph. auto using add_multi_back_wfp.
Qed.

Lemma re_front_reads nph v l : reads nph v l ->
  reads nph (if re_open_front (plain_items l) then sadd re_dotstar v else v) (sp_re_front l).
Proof.
  intros [<- G]. unfold sp_re_front. rewrite re_open_front_spec.
  destruct (prefixb dotstar (plain_items (items v)) || prefixb [94] (plain_items (items v))); cbn [negb].
  - split; [reflexivity | exact G].
  - split; [apply sadd_items | apply sadd_good_str; [destruct nph; reflexivity | exact G]].
Qed.
Lemma re_back_reads nph rs v l : reads nph v l ->
  reads nph (if re_open_back rs then sadd v re_dotstar else v) (sp_re_back rs l).
Proof.
  intros [<- G]. unfold sp_re_back. rewrite re_open_back_spec.
  destruct (suffixb dotstar rs || suffixb [36] rs); cbn [negb].
  - split; [reflexivity | exact G].
  - split; [apply sadd_items | apply sadd_good_str; [exact G | destruct nph; reflexivity]].
Qed.

Lemma expand_reads nph v l : reads nph v l -> reads false (insert_placeholders v) (sp_expand l).
Proof.
  intros [<- [W _]%good_str_iff]. split; [apply insert_placeholders_items, W|].
  apply good_str_iff. split; [apply insert_placeholders_wfp, W | discriminate].
Qed.

Lemma parse_reads esc t : reads true (parse esc t) (iread esc t).
Proof.
  split; [apply parse_read_items|]. apply good_str_iff. split; [apply parse_wfp | intros _; apply parse_no_ph].
Qed.

Lemma has_wildcard_items v : has_wildcard (items v) = contains_special v.
Proof.
  unfold has_wildcard, contains_special. induction v as [|p v IH]; [reflexivity|].
  rewrite items_cons, existsb_app. cbn [existsb]. rewrite IH. f_equal.
  destruct p as [s| | |n]; try reflexivity. cbn [part_items]. induction s; [reflexivity | assumption].
Qed.

Definition sim_list (nph : bool) : outcome (list mval) -> option (list sval) -> Prop :=
  sim (map view) (fun rs => forallb (good nph) rs = true).

Lemma sim_one nph (r : mval) : good nph r = true -> sim_list nph (Ok [r]) (Some [view r]).
Proof. intros H. split; [reflexivity | cbn; rewrite H; reflexivity]. Qed.

Lemma str_sim nph c v l : reads nph v l -> sim_list nph (Ok [VAtom (AStr c v)]) (Some [VAtom (AStr c l)]).
Proof. intros [<- Hg]. exact (sim_one nph (VAtom (AStr c v)) Hg). Qed.

Lemma compile_sim O nph v l fi fm fs : reads nph v l ->
  sim_list nph (obind (compile O v fi fm fs) (fun r => Ok [r])) (option_map (fun r => [r]) (sp_re O l fi fm fs)).
Proof.
  intros [<- Hg]. unfold compile, sp_re. rewrite to_plain_items.
  destruct (re_ok O (plain_items (items v))); [apply sim_one, Hg | reflexivity].
Qed.

(* A first 're' is set apart ([applied <> 0]): the specification defines it on a string of literals only
   (all_lits), which is what from_mapping builds under a 're' (from_str) and more than [good_atom] says;
   from_mapping_refines takes that step by itself (first_re_value_sim). *)
Lemma atom_sim O field applied m nph a :
  core m = true -> is_list_mod m = false -> (is_re m = true -> applied <> 0%nat) ->
  (is_windash m = true -> nph = true) -> good_atom nph a = true ->
  sim_list (nph && negb (is_expand m)) (apply_val O field applied m (VAtom a))
           (sp_apply O (has_field field) (Nat.eqb applied 0) m (VAtom (amap items a))).
Proof.
  intros Hc Hl Hre Hwd Hg.
  destruct m as [| | | | | | |p|f| | | | |o| | | | | |]; try discriminate Hc; try discriminate Hl;
  destruct a; cbn [apply_val type_check]; try exact eq_refl.
  all: cbn [modify ok_atom obind amap good_atom is_expand negb] in *; rewrite ?andb_true_r.
  - (* cased *) apply sim_one, Hg.
  - (* cidr: only on an unmodified value *) destruct applied as [|k]; cbn; [|reflexivity]. rewrite to_plain_items.
    destruct (cidr_ok O (plain_items (items s))); cbn; [split; reflexivity | reflexivity].
  - (* contains, string *) apply str_sim, back_reads, front_reads, reads_items, Hg.
  - (* contains, regex *) rewrite to_plain_items. apply compile_sim, re_back_reads, re_front_reads, reads_items, Hg.
  - (* contains, fieldref *) apply sim_one. reflexivity.
  - (* timestamp part *) apply sim_one. reflexivity.
  - (* flags *) destruct f; apply sim_one, Hg.
  - (* endswith, string *) apply str_sim, front_reads, reads_items, Hg.
  - (* endswith, regex *) rewrite to_plain_items. apply compile_sim, re_front_reads, reads_items, Hg.
  - (* endswith, fieldref *) apply sim_one. reflexivity.
  - (* exists: needs a field, only on an unmodified value *)
    destruct field; cbn; [|reflexivity]. destruct applied; cbn; [split; reflexivity | reflexivity].
  - (* expand, string *) rewrite andb_false_r. apply str_sim, (expand_reads nph), reads_items, Hg.
  - (* expand, regex *) rewrite andb_false_r. apply compile_sim, (expand_reads nph), reads_items, Hg.
  - (* fieldref *) cbn. rewrite has_wildcard_items. destruct (contains_special s); [reflexivity|].
    rewrite to_plain_items. split; reflexivity.
  - (* compare *) apply sim_one. reflexivity.
  - (* re: never on a modified value *) destruct applied as [|k]; [exfalso; apply Hre; reflexivity|]. reflexivity.
  - (* startswith, string *) apply str_sim, back_reads, reads_items, Hg.
  - (* startswith, regex *) rewrite to_plain_items. apply compile_sim, re_back_reads, reads_items, Hg.
  - (* startswith, fieldref *) apply sim_one. reflexivity.
  - (* windash: the dash variants, in one expansion *) specialize (Hwd eq_refl). subst nph.
    apply good_str_iff in Hg as [Hw Hg]. specialize (Hg eq_refl). split.
    + cbn. rewrite <- (windash_items (word O) s Hw (no_ph_no_wd_ph _ Hg)), !map_map. reflexivity.
    + cbn [forallb good]. rewrite andb_true_r. apply forallb_forall. intros x Hx. apply in_map_iff in Hx as [y [<- Hy]].
      pose proof (proj1 (Forall_forall _ _) (windash_good (word O) s Hw Hg) y Hy) as [A B].
      apply good_str_iff. auto.
Qed.

Lemma flat_sim nph (F : mval -> outcome (list mval)) (G : sval -> option (list sval)) l :
  (forall x, In x l -> sim_list nph (F x) (G (view x))) ->
  sim_list nph (flat_mapM F l) (sp_flat G (map view l)).
Proof.
  induction l as [|x r IH]; intros H; [split; reflexivity|]. cbn [flat_mapM map sp_flat].
  eapply sim_bind; [apply H; left; reflexivity|]. intros a Ha.
  eapply sim_bind; [apply IH; intros y Hy; apply H; right; exact Hy|]. intros b Hb.
  split; [rewrite map_app; reflexivity | rewrite forallb_app, Ha, Hb; reflexivity].
Qed.

Lemma apply_sim O field applied m nph :
  core m = true -> is_list_mod m = false -> (is_re m = true -> applied <> 0%nat) ->
  (is_windash m = true -> nph = true) ->
  forall v, good nph v = true ->
  sim_list (nph && negb (is_expand m)) (apply_val O field applied m v)
           (sp_apply O (has_field field) (Nat.eqb applied 0) m (view v)).
Proof.
  intros Hc Hl Hre Hwd. induction v as [a|l IH] using gval_ind'; intros Hg; [apply atom_sim; assumption|].
  rewrite apply_val_exp. cbn [view gmap]. rewrite sp_apply_exp. unfold option_map. eapply sim_bind.
  - rewrite Forall_forall in IH. cbn [good] in Hg. rewrite forallb_forall in Hg.
    apply flat_sim. intros x Hx. exact (IH x Hx (Hg x Hx)).
  - intros rs Hrs. apply sim_one, Hrs.
Qed.

(* no 'windash' once an 'expand' has run: nph says that the values cannot contain a placeholder yet (expand is
   what may put one named _windash there, and windash would replace it) *)
Fixpoint wd_ok (nph : bool) (ms : list modifier) : bool :=
  match ms with
  | [] => true
  | m :: r => (negb (is_windash m) || nph) && wd_ok (nph && negb (is_expand m)) r
  end.

Definition sp_step_values (O : oracles) (hf first : bool) (m : modifier) (vs : list sval) : option (list sval) :=
  if is_list_mod m then Some vs else sp_flat (sp_apply O hf first m) vs.
Fixpoint sp_chain_values (O : oracles) (hf first : bool) (ms : list modifier) (vs : list sval)
  : option (list sval) :=
  match ms with
  | [] => Some vs
  | m :: ms' => match sp_step_values O hf first m vs with
                | Some vs' => sp_chain_values O hf false ms' vs'
                | None => None
                end
  end.
Lemma sp_chain_closed O hf : forall ms first vs a n,
  sp_chain O hf first ms (vs, a, n) =
  option_map (fun vs' => (vs', a || existsb is_all ms, n || existsb is_neq ms)) (sp_chain_values O hf first ms vs).
Proof.
  induction ms as [|m ms IH]; intros first vs a n; cbn [sp_chain sp_chain_values existsb option_map].
  - rewrite !orb_false_r. reflexivity.
  - destruct m; cbn [sp_step_values is_list_mod is_all is_neq orb];
      try (destruct (sp_flat _ _); [|reflexivity]); rewrite IH, ?orb_true_r; reflexivity.
Qed.

Lemma step_values_sim O field applied m nph vs :
  core m = true -> (is_re m = true -> applied <> 0%nat) -> (is_windash m = true -> nph = true) ->
  forallb (good nph) vs = true ->
  sim_list (nph && negb (is_expand m)) (step_values O field applied m vs)
           (sp_step_values O (has_field field) (Nat.eqb applied 0) m (map view vs)).
Proof.
  intros Hc Hre Hwd Hg. unfold step_values, sp_step_values. destruct (is_list_mod m) eqn:El.
  - split; [reflexivity|]. destruct m; try discriminate El; cbn [is_expand negb]; rewrite andb_true_r; exact Hg.
  - rewrite forallb_forall in Hg. apply flat_sim. intros x Hx. apply apply_sim; auto.
Qed.

Lemma chain_sim O field : forall ms applied vs nph,
  forallb core ms = true -> wd_ok nph ms = true ->
  (applied = 0%nat -> match ms with m :: _ => is_re m = false | [] => True end) ->
  forallb (good nph) vs = true ->
  sim (map view) (fun _ => True) (chain_values O field applied ms vs)
      (sp_chain_values O (has_field field) (Nat.eqb applied 0) ms (map view vs)).
Proof.
  induction ms as [|m ms IH]; intros applied vs nph Hc Hw Hre Hg; [split; [reflexivity | exact I]|].
  apply andb_true_iff in Hc as [Hc Hcs]. apply andb_true_iff in Hw as [Hw Hws].
  cbn [chain_values sp_chain_values]. eapply sim_bind.
  - apply (step_values_sim O field applied m nph); auto.
    + intros Hr Ha. specialize (Hre Ha). cbn in Hre. congruence.
    + intros Hwd. rewrite Hwd in Hw. exact Hw.
  - intros vs' Hg'. apply (IH (S applied) vs' _ Hcs Hws); [discriminate | exact Hg'].
Qed.

Lemma lookup_modifier_In tbl id m : lookup_modifier tbl id = Some m -> In (id, m) tbl.
Proof.
  induction tbl as [|[n k] t IH]; [discriminate|]. cbn [lookup_modifier].
  destruct (str_eqb n id) eqn:E; [|right; auto]. apply str_eqb_eq in E. intros H. left. congruence.
Qed.
(* each table finds every entry of the other: two list equations, which evaluation decides for given tables *)
Lemma lookup_modifier_agree t1 t2 :
  map (fun e => lookup_modifier t2 (fst e)) t1 = map (fun e => Some (snd e)) t1 ->
  map (fun e => lookup_modifier t1 (fst e)) t2 = map (fun e => Some (snd e)) t2 ->
  forall id, lookup_modifier t1 id = lookup_modifier t2 id.
Proof.
  intros H1 H2 id. destruct (lookup_modifier t1 id) as [m|] eqn:E1.
  - apply lookup_modifier_In in E1. symmetry. exact (ext_in_map H1 _ E1).
  - destruct (lookup_modifier t2 id) as [m|] eqn:E2; [|reflexivity].
    apply lookup_modifier_In in E2. apply (ext_in_map H2) in E2. cbn in E2. congruence.
Qed.
Lemma tables_agree id : lookup_modifier modifier_mapping id = lookup_modifier sp_names id.
Proof. apply lookup_modifier_agree; reflexivity. Qed.

Lemma lookup_all_sim ids : sim (fun ms => ms) (fun _ => True) (lookup_all ids) (sp_lookup_all ids).
Proof.
  induction ids as [|i r IH]; [split; [reflexivity | exact I]|].
  cbn [lookup_all sp_lookup_all]. rewrite <- tables_agree.
  destruct (lookup_modifier modifier_mapping i) as [m|]; [|reflexivity].
  eapply sim_bind; [exact IH|]. intros ms _. split; [reflexivity | exact I].
Qed.

Lemma sp_key_split key : sp_key key = (has_field (fst (split_key key)), snd (split_key key)).
Proof.
  unfold sp_key, split_key. destruct key as [k|]; [|reflexivity].
  destruct (split_on c_pipe k []) as [|f ids]; [reflexivity|]. destruct f; reflexivity.
Qed.

Definition exact_int (z : Z) : bool :=
  let f := round_f64 z in negb (Z.shiftl 1 1024 <=? Z.abs f)%Z && (f =? z)%Z.
Definition exact_ints (l : list yv) : bool :=
  forallb (fun v => match v with YInt z => exact_int z | _ => true end) l.
Definition nonempty_strs (l : list yv) : bool :=
  forallb (fun v => match v with YStr [] => false | _ => true end) l.

Lemma sigma_value_sim hr v : match v with YInt z => exact_int z | _ => true end = true ->
  sim view (fun _ => True) (sigma_value hr v) (sp_value hr v).
Proof.
  intros H. destruct v as [s|z|n d| |b| |]; cbn [sigma_value sigma_number sp_value].
  - split; [|exact I]. cbn [view gmap amap]. destruct hr; [cbn; rewrite app_nil_r | rewrite parse_items]; reflexivity.
  - apply andb_true_iff in H as [H1 H2]. apply negb_true_iff in H1. rewrite H1, H2. split; [reflexivity | exact I].
  - destruct (Pos.eqb d 1); split; reflexivity || exact I.
  - reflexivity.
  - split; [reflexivity | exact I].
  - split; [reflexivity | exact I].
  - reflexivity.
Qed.

Lemma values_sim hr l : exact_ints l = true ->
  sim (map view) (fun _ => True) (mapM (sigma_value hr) l) (sp_values hr l).
Proof.
  induction l as [|v r IH]; intros H; [split; [reflexivity | exact I]|]. apply andb_true_iff in H as [Hv Hr].
  cbn [mapM sp_values]. eapply sim_bind; [exact (sigma_value_sim hr v Hv)|]. intros a _.
  eapply sim_bind; [exact (IH Hr)|]. intros b _. split; [reflexivity | exact I].
Qed.

(* initial values are well-formed, except SigmaString.from_str("") *)
Lemma sigma_value_good C hr v :
  (hr = true -> match v with YStr [] => false | _ => true end = true) ->
  ensures C (fun mv => good true mv = true) (sigma_value hr v).
Proof.
  intros Hs. apply sigma_value_ensures.
  - intros t ->. cbn [good good_atom]. destruct hr; [|exact (proj2 (parse_reads true t))].
    destruct t; [discriminate (Hs eq_refl) | reflexivity].
  - intros a Ha. destruct a; reflexivity || contradiction.
Qed.

Lemma values_good C hr l : (hr = true -> nonempty_strs l = true) ->
  ensures C (Forall (fun mv => good true mv = true)) (mapM (sigma_value hr) l).
Proof.
  intros Hs. apply (ensures_traverse C _ (sigma_value hr)). intros y Hy. apply sigma_value_good.
  intros Hr. exact (proj1 (forallb_forall _ _) (Hs Hr) y Hy).
Qed.

Lemma all_lits_map s : all_lits (map Lit s) = Some s.
Proof. induction s as [|c s IH]; [reflexivity|]. cbn [map all_lits fold_right] in *. unfold all_lits in IH. rewrite IH. reflexivity. Qed.

Lemma first_re_value_sim C O field v :
  ensures C (fun mv => sim_list true (apply_val O field 0 MRe mv) (sp_apply O (has_field field) true MRe (view mv)))
          (sigma_value true v).
Proof.
  apply sigma_value_ensures; [intros t _ | intros a Ha; destruct a; exact eq_refl || contradiction].
  cbn [apply_val type_check modify view gmap amap sp_apply sp_modify kind_of sp_defined_on negb Nat.ltb Nat.leb].
  cbn [from_str to_plain flat_map part_plain items part_items]. rewrite !app_nil_r, all_lits_map.
  apply compile_sim, (parse_reads false t).
Qed.

Definition values_of (val : yin) : list yv := match val with YOne v => [v] | YMany l => l end.

(* the domain: modifiers outside the five encoding modifiers (property C04), no 'expand' before a
   'windash' (placeholders named _windash), integers that survive float(), and no empty string
   under a 're' that is not the first modifier *)
Definition in_domain (key : option str) (val : yin) : bool :=
  exact_ints (values_of val) &&
  match lookup_all (snd (split_key key)) with
  | Ok ms => forallb core ms && wd_ok true ms &&
             (negb (existsb is_re ms) || match ms with m :: _ => is_re m | [] => false end
              || nonempty_strs (values_of val))
  | _ => true
  end.

Definition refines (O : oracles) (key : option str) (val : yin) : Prop :=
  match from_mapping O key val with
  | Ok st => sp_from_mapping O key val = Some (map view (values st), link_and st, negated st)
  | SigmaErr _ => sp_from_mapping O key val = None
  | Crash _ => False
  end.

Theorem from_mapping_refines O key val : in_domain key val = true -> refines O key val.
Proof.
  unfold in_domain, refines, from_mapping, sp_from_mapping. rewrite sp_key_split.
  destruct (split_key key) as [field ids]. cbn [fst snd]. fold (values_of val).
  intros H. apply andb_true_iff in H as [Hi H].
  apply (sim_elim (fun st => (map view (values st), link_and st, negated st)) (fun _ => True)).
  eapply sim_bind; [apply sim_ok, lookup_all_sim|]. intros ms [El _]. rewrite El in H.
  apply andb_true_iff in H as [H Hre]. apply andb_true_iff in H as [Hc Hw].
  eapply sim_bind; [apply sim_ok, values_sim, Hi|]. intros vs [EV _].
  rewrite run_chain_closed, sp_chain_closed. unfold option_map.
  eapply sim_bind with (P := fun _ => True); [|intros vs' _; split; [reflexivity | exact I]].
  destruct ms as [|m ms']; [split; [reflexivity | exact I]|].
  destruct (is_re m) eqn:Em.
  - (* 're' first: its step is taken on the values as they were read *)
    destruct m; try discriminate Em. cbn [existsb is_re orb] in EV.
    apply andb_true_iff in Hc as [_ Hc]. cbn [chain_values sp_chain_values]. eapply sim_bind.
    + apply (flat_sim true), Forall_forall.
      exact (ensures_ok _ _ _ _ (ensures_traverse True _ _ _ (fun y _ => first_re_value_sim True O field y)) EV).
    + intros vs1 G1. apply (chain_sim O field ms' 1 vs1 true Hc Hw); [discriminate | exact G1].
  - apply (chain_sim O field (m :: ms') 0 vs true Hc Hw); [intros _; exact Em|].
    apply forallb_forall, Forall_forall. refine (ensures_ok _ _ _ _ (values_good True _ _ _) EV).
    intros E. rewrite E in Hre. exact Hre.
Qed.

Corollary rejected_iff O key val : in_domain key val = true ->
  ((exists c, from_mapping O key val = SigmaErr c) <-> sp_from_mapping O key val = None).
Proof.
  intros H. pose proof (from_mapping_refines O key val H) as R. unfold refines in R.
  destruct (from_mapping O key val) as [st|c|c] eqn:E.
  - split; [intros [c Hc]; discriminate Hc | intros K; rewrite K in R; discriminate R].
  - split; [intros _; exact R | intros _; exists c; reflexivity].
  - contradiction.
Qed.

Definition O0 : oracles := {| word := fun _ => false; re_ok := fun _ => true; cidr_ok := fun _ => true |}.

(* a user placeholder that happens to be called _windash is expanded by windash *)
Lemma windash_placeholder_refuted :
  exists v, wfp v = true /\ map items (windash (word O0) v) <> variants (word O0) false (items v).
Proof. exists [PPh windash_name]. split; [reflexivity|]. vm_compute. discriminate. Qed.

Definition key_expand_windash : option str := Some [102;124;101;120;112;97;110;100;124;119;105;110;100;97;115;104]. (* f|expand|windash *)
Definition val_windash_ph : yin := YOne (YStr [37;95;119;105;110;100;97;115;104;37]).                                   (* %_windash% *)
Lemma refines_refuted_windash : ~ refines O0 key_expand_windash val_windash_ph.
Proof. unfold refines. vm_compute. discriminate. Qed.

(* integers beyond the precision of a double change their content *)
Lemma number_refuted : exists z, sigma_number (YInt z) <> Ok (NInt z).
Proof. exists 9007199254740993%Z. vm_compute. discriminate. Qed.
Lemma refines_refuted_number : ~ refines O0 (Some [102]) (YOne (YInt 9007199254740993)).
Proof. unfold refines. vm_compute. discriminate. Qed.

Lemma in_domain_example :
  in_domain (Some [102;124;119;105;110;100;97;115;104;124;99;111;110;116;97;105;110;115;124;97;108;108])  (* f|windash|contains|all *)
            (YMany [YStr [45;97;32;47;98]; YStr [42;120]]) = true.
Proof. vm_compute. reflexivity. Qed.

Lemma add_multi_front_no_empty v : no_empty v = true -> no_empty (add_multi_front v) = true.
Proof.
  intros H. unfold add_multi_front. destruct (starts_multi v); [exact H|].
  apply wfp_no_empty, sadd_wfp; [reflexivity | exact H].
Qed.
Lemma contains_sem_model v s : no_empty v = true ->
  (wild_match (items (add_multi_back (add_multi_front v))) s = true <->
   exists a m b, s = a ++ m ++ b /\ wild_match (items v) m = true).
Proof.
  intros H. rewrite (add_multi_back_items _ (add_multi_front_no_empty v H)), (add_multi_front_items v H).
  exact (sp_contains_sem (items v) s).
Qed.
Lemma startswith_sem_model v s : no_empty v = true ->
  (wild_match (items (add_multi_back v)) s = true <->
   exists m b, s = m ++ b /\ wild_match (items v) m = true).
Proof. intros H. rewrite (add_multi_back_items v H). exact (sp_back_sem (items v) s). Qed.
Lemma endswith_sem_model v s : no_empty v = true ->
  (wild_match (items (add_multi_front v)) s = true <->
   exists a m, s = a ++ m /\ wild_match (items v) m = true).
Proof. intros H. rewrite (add_multi_front_items v H). exact (sp_front_sem (items v) s). Qed.

Lemma modify_exists_inv O field applied b r :
  modify O field applied MExists (ABool b) = Ok r -> r = VAtom (AExists b).
Proof.
  cbn [modify]. destruct field; [|discriminate]. destruct (0 <? applied)%nat; intros [= <-]. reflexivity.
Qed.
Lemma modify_cidr_inv O field applied c v r :
  modify O field applied MCidr (AStr c v) = Ok r -> r = VAtom (ACidr (to_plain false v)).
Proof.
  cbn [modify]. destruct (0 <? applied)%nat; [discriminate|].
  destruct (cidr_ok O (to_plain false v)); intros [= <-]. reflexivity.
Qed.
Lemma modify_fieldref_inv O field applied c v r :
  modify O field applied MFieldref (AStr c v) = Ok r ->
  r = VAtom (AFieldRef (to_plain false v) false false) /\ contains_special v = false.
Proof. cbn [modify]. destruct (contains_special v); intros [= <-]. split; reflexivity. Qed.
Lemma modify_re_inv O field applied c s r :
  modify O field applied MRe (AStr c (from_str s)) = Ok r ->
  exists w, r = VAtom (ARe w false false false) /\ items w = iparse_noesc s.
Proof.
  cbn [modify]. destruct (0 <? applied)%nat; [discriminate|]. unfold compile.
  destruct (re_ok O _); intros [= <-]. eexists. split; [reflexivity|].
  cbn [from_str to_plain flat_map part_plain]. rewrite app_nil_r. apply (parse_read_items false).
Qed.
