(* C20 - drawn identifiers never reach the result: the resolution of a rule to which filters and added
   conditions were applied (through drawn names, dict insertions, lookups by name and pattern matching)
   equals the nameless specification, for every fresh draw. *)
From Coq Require Import PeanoNat NArith List Bool.
From PS Require Import Base.Chars Model.Determinism Spec.DetSpec Proofs.CharsP Proofs.DeterminismP.
Import ListNotations.
Open Scope N_scope.

Lemma lookup_None {V} k (m : list (str * V)) : ~ In k (map fst m) -> lookup k m = None.
Proof. exact (alookup_None k m). Qed.

Lemma dset_fresh {V} k (v : V) m : ~ In k (map fst m) -> dset k v m = m ++ [(k, v)].
Proof.
  induction m as [|[k' v'] m IH]; simpl; intros H; [reflexivity|].
  destruct (str_eqb_spec k k') as [->|_]; [elim H; now left | f_equal; apply IH; tauto].
Qed.

Definition dstep {V} (m : list (str * V)) (kv : str * V) := dset (fst kv) (snd kv) m.

Lemma fold_dset_fresh {V} (l : list (str * V)) : forall m,
  NoDup (map fst (m ++ l)) -> fold_left dstep l m = m ++ l.
Proof.
  induction l as [|[k v] l IH]; intros m Hnd; simpl; [now rewrite app_nil_r|].
  assert (E : (m ++ [(k, v)]) ++ l = m ++ (k, v) :: l) by now rewrite <- app_assoc.
  unfold dstep at 2. simpl. rewrite dset_fresh.
  - rewrite IH; [exact E | now rewrite E].
  - rewrite map_app in Hnd. apply NoDup_remove_2 in Hnd. rewrite in_app_iff in Hnd. tauto.
Qed.

Lemma prefixb_refl a : prefixb a a = true.
Proof. induction a; simpl; [reflexivity|]. now rewrite N.eqb_refl. Qed.

Lemma prefixb_starts_us d k : starts_us d = true -> prefixb d k = true -> starts_us k = true.
Proof.
  destruct d as [|c d], k as [|c' k]; simpl; try discriminate.
  intros ->%N.eqb_eq [<-%N.eqb_eq _]%andb_prop. reflexivity.
Qed.

Lemma draw_okb_spec L d : draw_okb L d = true -> length d = L /\ starts_us d = true /\ ~ In c_star d.
Proof.
  unfold draw_okb. intros [[H1%Nat.eqb_eq H2]%andb_prop H3%negb_true_iff]%andb_prop.
  repeat split; auto. intros Hin%mem_In. congruence.
Qed.

(* the step that Section GlobPrefix of CharsP asks of a matcher; sel_match is gsel glob by conversion, so that
   section says what a pattern under a drawn prefix selects *)
Lemma glob_lit c p s : N.eqb c c_star = false ->
  glob (c :: p) s = match s with [] => false | d :: s' => N.eqb c d && glob p s' end.
Proof. intros H. simpl. rewrite H. reflexivity. Qed.

Lemma glob_star s : glob [c_star] s = true.
Proof. induction s as [|d s IH]; [reflexivity | exact IH]. Qed.

Lemma pat_match_glob p n : pat_match p n = glob (if str_eqb p them then [c_star] else p) n.
Proof. unfold pat_match. destruct (str_eqb p them); [symmetry; apply glob_star | reflexivity]. Qed.

(* names for the functions that names_rule folds (fstep, astep) and that all_dets maps over the added conditions
   (centry): the model writes them in place, and its terms are folds and maps of these by conversion *)
Definition fstep (r : rule) (pf : str * sfilter) := apply_filter (fst pf) (snd pf) r.
Definition astep (r : rule) (na : str * (str * bool)) := add_cond (fst na) (fst (snd na)) (snd (snd na)) r.
Definition cfstep (c : cexpr) (pf : str * sfilter) := CBin true c (rename (fst pf) (f_cond (snd pf))).
Definition castep (c : cexpr) (na : str * (str * bool)) :=
  CBin true (if snd (snd na) then CNot (CId (fst na)) else CId (fst na)) c.
Definition centry (na : str * (str * bool)) : str * str := (fst na, fst (snd na)).

Lemma block_fold px f m :
  fold_left (fun m kv => dset (pfx px (fst kv)) (snd kv) m) (f_dets f) m = fold_left dstep (block (px, f)) m.
Proof.
  unfold block. simpl. revert m. induction (f_dets f) as [|kv l IH]; intros m; simpl; [reflexivity | apply IH].
Qed.

Lemma dets_filters PF : forall r,
  r_dets (fold_left fstep PF r) = fold_left dstep (concat (map block PF)) (r_dets r).
Proof.
  induction PF as [|[px f] PF IH]; intros r; simpl; [reflexivity|].
  rewrite IH, fold_left_app. f_equal. apply block_fold.
Qed.
Lemma cond_filters PF : forall r, r_cond (fold_left fstep PF r) = fold_left cfstep PF (r_cond r).
Proof. induction PF as [|pf PF IH]; intros r; simpl; [reflexivity | now rewrite IH]. Qed.
Lemma dets_adds CA : forall r, r_dets (fold_left astep CA r) = fold_left dstep (map centry CA) (r_dets r).
Proof. induction CA as [|na CA IH]; intros r; simpl; [reflexivity | now rewrite IH]. Qed.
Lemma cond_adds CA : forall r, r_cond (fold_left astep CA r) = fold_left castep CA (r_cond r).
Proof. induction CA as [|na CA IH]; intros r; simpl; [reflexivity | now rewrite IH]. Qed.

Lemma names_rule_shape r PF CA :
  NoDup (map fst (all_dets r PF CA)) ->
  r_dets (names_rule r PF CA) = all_dets r PF CA /\
  r_cond (names_rule r PF CA) = fold_left castep CA (fold_left cfstep PF (r_cond r)).
Proof.
  intros Hnd. unfold names_rule. fold fstep. fold astep. split.
  - rewrite dets_adds, dets_filters, <- fold_left_app. apply fold_dset_fresh, Hnd.
  - now rewrite cond_adds, cond_filters.
Qed.

Lemma resolve_adds T : forall CA c,
  (forall na, In na CA -> lookup (fst na) T = Some (fst (snd na))) ->
  resolve T (fold_left castep CA c) = spec_adds (resolve T c) (map snd CA).
Proof.
  induction CA as [|[n [content neg]] CA IH]; intros c H; [reflexivity|].
  simpl. rewrite IH by (intros; apply H; now right). unfold spec_adds. simpl. f_equal.
  specialize (H _ (or_introl eq_refl)). simpl in H.
  unfold castep. destruct neg; simpl; rewrite H; simpl; now destruct (resolve T c).
Qed.

Lemma resolve_filters T : forall PF c,
  (forall pf, In pf PF -> resolve T (rename (fst pf) (f_cond (snd pf))) = resolve_own (f_dets (snd pf)) (f_cond (snd pf))) ->
  resolve T (fold_left cfstep PF c) = spec_filters (resolve T c) (map snd PF).
Proof.
  induction PF as [|pf PF IH]; intros c H; [reflexivity|].
  simpl. rewrite IH by (intros; apply H; now right). unfold spec_filters. simpl. f_equal.
  unfold cfstep. simpl. now rewrite (H pf (or_introl eq_refl)).
Qed.

Lemma resolve_rule_level m E c :
  (forall n, In n (ids c) -> ~ In n (map fst E)) ->
  (forall p, In p (pats c) -> starts_us p = false) ->
  (forall k, In k (map fst E) -> starts_us k = true) ->
  resolve (m ++ E) c = resolve m c.
Proof.
  intros Hi Hp He. induction c as [n|a p|c IH|o a IHa b IHb]; simpl in *.
  - rewrite lookup_app, (lookup_None n E) by auto. now destruct (lookup n m).
  - rewrite filter_app, (filter_nil _ E); [now rewrite app_nil_r|].
    intros [k v] Hin. unfold sel_match. simpl.
    rewrite (Hp p (or_introl eq_refl)), (He k (in_map fst _ _ Hin)). apply andb_false_r.
  - rewrite IH; auto.
  - rewrite IHa, IHb; auto using in_or_app.
Qed.

Lemma lookup_block px f n : lookup (pfx px n) (block (px, f)) = lookup n (f_dets f).
Proof.
  unfold block. simpl. induction (f_dets f) as [|[k v] l IH]; simpl; [reflexivity|].
  unfold pfx at 1 2. rewrite str_eqb_app_l. simpl.
  destruct (str_eqb n k); [reflexivity | exact IH].
Qed.

Lemma resolve_filter_level px f pre post :
  starts_us px = true -> ~ In c_star px ->
  (forall kv, In kv (pre ++ post) -> prefixb px (fst kv) = false) ->
  forall c, (forall n, In n (ids c) -> haskey n (f_dets f) = true) ->
  resolve (pre ++ block (px, f) ++ post) (rename px c) = resolve_own (f_dets f) c.
Proof.
  intros Hus Hstar Hout.
  assert (Hpre : forall kv, In kv pre -> prefixb px (fst kv) = false) by auto using in_or_app.
  assert (Hpost : forall kv, In kv post -> prefixb px (fst kv) = false) by auto using in_or_app.
  induction c as [n|a p|c IH|o a IHa b IHb]; intros Hc; simpl in *.
  - rewrite lookup_app, lookup_None, lookup_app, lookup_block.
    + specialize (Hc n (or_introl eq_refl)). unfold haskey in Hc. now destruct (lookup n (f_dets f)).
    + intros Hin. apply in_map_iff in Hin as [kv [E Hin]]. apply Hpre in Hin.
      rewrite E in Hin. unfold pfx in Hin. now rewrite prefixb_app in Hin.
  - replace (if str_eqb p them then _ else _) with (pfx px (if str_eqb p them then [c_star] else p))
      by now destruct (str_eqb p them).
    rewrite !filter_app, (filter_nil _ pre), (filter_nil _ post), app_nil_r
      by (intros kv Hin; apply (gsel_out glob glob_lit); auto).
    unfold block. simpl. rewrite filter_map_comm, map_map. simpl. do 3 f_equal.
    apply filter_ext. intros [k v]. simpl. rewrite pat_match_glob. apply (gsel_in glob glob_lit); assumption.
  - rewrite IH; auto.
  - rewrite IHa, IHb; auto using in_or_app.
Qed.

Lemma internal_prefix D d k : In d D -> prefixb d k = true -> internalb D k = true.
Proof. intros Hd Hp. apply existsb_exists. exists d. auto. Qed.

Lemma internal_starts_us D k :
  (forall d, In d D -> starts_us d = true) -> internalb D k = true -> starts_us k = true.
Proof. intros HD [d [Hd Hp]]%existsb_exists. apply (prefixb_starts_us d); auto. Qed.

Lemma other_draw_no_prefix L D1 px D2 k :
  (forall d, In d (D1 ++ px :: D2) -> length d = L) -> NoDup (D1 ++ px :: D2) ->
  internalb (D1 ++ D2) k = true -> prefixb px k = false.
Proof.
  intros HL Hnd [d [Hd Hp]]%existsb_exists. destruct (prefixb px k) eqn:E; [|reflexivity].
  elim (NoDup_remove_2 _ _ _ Hnd). rewrite (prefixb_same_len px d k); auto.
  rewrite !HL; [reflexivity | | apply in_elt]. apply in_app_or in Hd as [Hd|Hd]; apply in_or_app; simpl; auto.
Qed.

Lemma added_internal PF CA k :
  In k (map fst (concat (map block PF) ++ map centry CA)) -> internalb (drawn PF CA) k = true.
Proof.
  intros [kv [<- Hkv]]%in_map_iff.
  apply in_app_or in Hkv as [[b [[pf [<- Hpf]]%in_map_iff Hb]]%in_concat | [na [<- Hna]]%in_map_iff].
  - apply in_map_iff in Hb as [e [<- _]].
    apply (internal_prefix _ (fst pf)); [apply in_or_app; left; apply in_map, Hpf | apply prefixb_app].
  - apply (internal_prefix _ (fst na)); [apply in_or_app; right; apply in_map, Hna | apply prefixb_refl].
Qed.

Theorem names_spec L r PF CA :
  freshb L r PF CA = true ->
  names_run r PF CA = spec_names r (map snd PF) (map snd CA).
Proof.
  unfold freshb.
  intros [[[[[[Hok Hnd%snodupb_spec]%andb_prop HndT%snodupb_spec]%andb_prop Hrk]%andb_prop Hri]%andb_prop
            Hrp]%andb_prop Hcl]%andb_prop.
  rewrite forallb_forall in Hok, Hrk, Hri, Hrp, Hcl.
  assert (HD : forall d, In d (drawn PF CA) -> length d = L /\ starts_us d = true /\ ~ In c_star d)
    by (intros d Hd; apply draw_okb_spec, Hok, Hd).
  unfold names_run, spec_names. destruct (names_rule_shape r PF CA HndT) as [-> ->].
  rewrite resolve_adds, resolve_filters.
  - (* the rule's own condition *)
    do 2 f_equal. apply resolve_rule_level.
    + intros n Hn Hin%added_internal. apply Hri in Hn. now rewrite Hin in Hn.
    + intros p Hp. apply negb_true_iff, Hrp, Hp.
    + intros k Hk%added_internal. revert Hk. apply internal_starts_us. intros d Hd. apply HD, Hd.
  - (* one filter: every other name is a name of the rule or carries another draw *)
    intros [px f] Hpf. simpl.
    assert (Hpx : In px (drawn PF CA)) by (apply in_or_app; left; apply (in_map fst _ _ Hpf)).
    destruct (HD px Hpx) as [Hlen [Hus Hst]]. destruct (in_split _ _ Hpf) as [l1 [l2 ->]].
    replace (all_dets r (l1 ++ (px, f) :: l2) CA)
      with ((r_dets r ++ concat (map block l1)) ++ block (px, f) ++ (concat (map block l2) ++ map centry CA))
      by (unfold all_dets; rewrite map_app, concat_app; simpl; now rewrite <- !app_assoc).
    apply resolve_filter_level; auto.
    + intros kv Hk.
      rewrite <- app_assoc, (app_assoc (concat _)), <- concat_app, <- map_app in Hk.
      apply in_app_or in Hk as [Hk|Hk].
      * apply Hrk, negb_true_iff in Hk. destruct (prefixb px (fst kv)) eqn:E; [|reflexivity].
        now rewrite (internal_prefix _ px _ Hpx E) in Hk.
      * apply (in_map fst), added_internal in Hk.
        unfold drawn in Hnd, HD, Hk. rewrite map_app, <- app_assoc in Hnd, HD, Hk.
        revert Hk. apply (other_draw_no_prefix L); [|exact Hnd]. intros d Hd. apply HD, Hd.
    + apply (forallb_forall _ _). exact (Hcl _ Hpf).
  - (* added conditions find their own entry *)
    intros na Hna. apply In_alookup; [exact HndT|]. unfold all_dets. do 2 (apply in_or_app; right).
    apply (in_map centry _ _ Hna).
Qed.

Lemma atoms_mk_sel a l : atoms (mk_sel a l) = l.
Proof. destruct l as [|x [|y l]]; reflexivity. Qed.

Lemma resolve_atoms m c : forall q, resolve m c = RQ q -> incl (atoms q) (map snd m).
Proof.
  induction c as [n|al p|c IH|o a IHa b IHb]; simpl; intros q H.
  - destruct (lookup n m) as [v|] eqn:E; inversion H. intros x [<-|[]].
    apply (in_map snd _ _ (alookup_In _ _ _ E)).
  - inversion H. rewrite atoms_mk_sel. apply incl_map, incl_filter.
  - destruct (resolve m c) as [q'|]; inversion H. now apply (IH q').
  - destruct (resolve m a) as [qa|], (resolve m b) as [qb|]; inversion H. simpl. apply incl_app; auto.
Qed.

Theorem names_draw_free L r PF PF' CA CA' :
  map snd PF = map snd PF' -> map snd CA = map snd CA' ->
  freshb L r PF CA = true -> freshb L r PF' CA' = true ->
  names_run r PF CA = names_run r PF' CA'.
Proof.
  intros E1 E2 H H'. rewrite (names_spec _ _ _ _ H), (names_spec _ _ _ _ H'), E1, E2. reflexivity.
Qed.

Theorem names_atoms_contents r PF CA q :
  NoDup (map fst (all_dets r PF CA)) -> names_run r PF CA = RQ q ->
  forall a, In a (atoms q) -> In a (map snd (all_dets r PF CA)).
Proof.
  intros Hnd H. unfold names_run in H. destruct (names_rule_shape r PF CA Hnd) as [Ed _].
  rewrite Ed in H. exact (resolve_atoms _ _ _ H).
Qed.

Definition s_cond : str := [95; 99; 111; 110; 100; 95].   (* _cond_ *)
Definition s_filt : str := [95; 102; 105; 108; 116; 95].  (* _filt_ *)
(* a name the library can draw: the tag followed by ten lower-case letters, here ten times the same
   ("_filt_" + "".join(random.choices(string.ascii_lowercase, k=10)) in filters.py, "_cond_" + ... in
   transformations/condition.py). Both tags have six characters, so every draw has length 16, the L of freshb and
   static_okb in the closed examples. *)
Definition dn (tag : str) (c : N) : str := tag ++ repeat c 10.
Definition w_sel : str := [115; 101; 108].
Definition w_x : str := [95; 120].
Definition w_pat : str := [95; 42; 97].                    (* _*a *)
Definition w_nosuch : str := [110; 111; 115; 117; 99; 104].
Definition w_rule1 : rule :=
  {| r_dets := [(w_sel, w_sel); (w_x, w_x)]; r_cond := CBin false (CId w_sel) (CSel false w_pat) |}.
Definition w_filter : sfilter := {| f_dets := [([115; 49], [99])]; f_cond := CNot (CId w_nosuch) |}.
Definition w_rule2 : rule := {| r_dets := [(w_sel, w_sel)]; r_cond := CId w_sel |}.
Definition w_rule3 : rule := {| r_dets := [(dn s_cond 97, w_sel)]; r_cond := CId (dn s_cond 97) |}.

(* a rule-level pattern starting with _ sees the drawn names: the result depends on the draw *)
Theorem names_underscore_refuted :
  exists r CA CA', map snd CA = map snd CA' /\ names_run r [] CA <> names_run r [] CA'.
Proof.
  exists w_rule1, [(dn s_cond 97, ([97; 48], false))], [(dn s_cond 98, ([97; 48], false))].
  split; [reflexivity | vm_compute; discriminate].
Qed.

(* a filter that names a detection it does not define fails with an error text containing the draw *)
Theorem names_filter_error_refuted :
  exists r PF PF', map snd PF = map snd PF' /\ names_run r PF [] <> names_run r PF' [].
Proof.
  exists w_rule2, [(dn s_filt 97, w_filter)], [(dn s_filt 98, w_filter)].
  split; [reflexivity | vm_compute; discriminate].
Qed.

(* a drawn name that collides with a detection of the rule replaces it (probability 26^-10 per draw) *)
Theorem names_collision_refuted :
  exists r CA CA', map snd CA = map snd CA' /\ names_run r [] CA <> names_run r [] CA'.
Proof.
  exists w_rule3, [(dn s_cond 97, ([97; 48], false))], [(dn s_cond 98, ([97; 48], false))].
  split; [reflexivity | vm_compute; discriminate].
Qed.

Definition w_filter_ok : sfilter :=
  {| f_dets := [([115; 49], [99]); ([115; 50], [100])]; f_cond := CNot (CBin true (CId [115; 49]) (CSel false them)) |}.
Definition w_rule4 : rule :=
  {| r_dets := [(w_sel, w_sel); ([100; 49], [101])]; r_cond := CBin false (CId w_sel) (CSel true [100; 42]) |}.
Example fresh_inhabited :
  freshb 16 w_rule4 [(dn s_filt 97, w_filter_ok); (dn s_filt 98, w_filter_ok)]
            [(dn s_cond 97, ([97; 48], false)); (dn s_cond 98, ([97; 49], true))] = true.
Proof. vm_compute. reflexivity. Qed.
