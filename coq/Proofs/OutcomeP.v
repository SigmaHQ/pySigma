(* `obind` of Base/Outcome.v, for the proofs of every property that follow a computation through it: its inversion,
   a postcondition that passes through it (ensures, safe), the sequential map written with it (traverse), and two
   relations that pass through it: an outcome against an option (sim), an outcome against an outcome (orel). *)
From Coq Require Import List.
From PS Require Import Base.Outcome.
Import ListNotations.

Lemma Ok_inj {A} (a b : A) : Ok a = Ok b -> a = b.
Proof. intros [= H]. exact H. Qed.

Lemma obind_ok {A B} (x : outcome A) (k : A -> outcome B) c :
  obind x k = Ok c <-> exists a, x = Ok a /\ k a = Ok c.
Proof.
  destruct x as [a| |]; simpl; (split; [eauto; discriminate | intros [a' [E H]]; try discriminate]).
  injection E as ->. exact H.
Qed.

Lemma obind_ext {A B} (x : outcome A) (f g : A -> outcome B) :
  (forall a, f a = g a) -> obind x f = obind x g.
Proof. intros H. destruct x; [apply H|reflexivity|reflexivity]. Qed.

Lemma obind_assoc {A B D} (x : outcome A) (f : A -> outcome B) (g : B -> outcome D) :
  obind (obind x f) g = obind x (fun a => obind (f a) g).
Proof. destruct x; reflexivity. Qed.

Lemma obind_iff {A B} (x x' : outcome A) (k k' : A -> outcome B) c :
  (forall a, x = Ok a <-> x' = Ok a) -> (forall a, k a = Ok c <-> k' a = Ok c) ->
  obind x k = Ok c <-> obind x' k' = Ok c.
Proof. intros Hx Hk. rewrite !obind_ok. setoid_rewrite Hx. setoid_rewrite Hk. reflexivity. Qed.

(* A postcondition: what o returns satisfies Q, a Sigma error is always admitted, a crash only if C holds.
   `ensures False Q o`: nothing but a Sigma error escapes from o; `ensures True Q o`: partial correctness. *)
Definition ensures {A} (C : Prop) (Q : A -> Prop) (o : outcome A) : Prop :=
  match o with Ok a => Q a | SigmaErr _ => True | Crash _ => C end.

Lemma ensures_bind {A B} C (P : A -> Prop) (Q : B -> Prop) o f :
  ensures C P o -> (forall a, P a -> ensures C Q (f a)) -> ensures C Q (obind o f).
Proof. destruct o; simpl; auto. Qed.

Lemma ensures_weaken {A} C (P Q : A -> Prop) o : ensures C P o -> (forall a, P a -> Q a) -> ensures C Q o.
Proof. destruct o; simpl; auto. Qed.

Lemma ensures_ok {A} C (Q : A -> Prop) o a : ensures C Q o -> o = Ok a -> Q a.
Proof. intros H ->. exact H. Qed.

Lemma ensures_if {A} C (Q : A -> Prop) (c : bool) x y : ensures C Q x -> ensures C Q y -> ensures C Q (if c then x else y).
Proof. destruct c; auto. Qed.

Lemma ensures_trivial {A} (o : outcome A) : ensures True (fun _ => True) o.
Proof. destruct o; exact I. Qed.

Definition safe {A} (o : outcome A) : Prop := ensures False (fun _ => True) o.

Lemma safe_no_crash {A} (o : outcome A) : safe o -> forall c, o <> Crash c.
Proof. intros H c ->. exact H. Qed.

Lemma obind_safe {A B} (o : outcome A) (f : A -> outcome B) : safe o -> (forall a, safe (f a)) -> safe (obind o f).
Proof. intros Ho Hf. apply (ensures_bind False (fun _ => True)); [exact Ho | intros a _; apply Hf]. Qed.

(* The sequential map in which the first failure wins.  Every model writes it out for itself.  Where it is a
   top-level fixpoint over the same four arguments (`mapM` of Modifiers, Corr and Serialize, `map_out` of Yaml,
   `omap` of PipeSpec) the lemmas below apply to it by conversion; where it is a `fix` over the list alone
   (`omap` of Enc, Security and History) they apply after `omap f l = traverse f l`, an induction on l. *)
Fixpoint traverse {A B} (f : A -> outcome B) (l : list A) : outcome (list B) :=
  match l with
  | [] => Ok []
  | x :: r => obind (f x) (fun y => obind (traverse f r) (fun ys => Ok (y :: ys)))
  end.

Lemma traverse_rel {A B} (f : A -> outcome B) (S : A -> B -> Prop) l ys :
  traverse f l = Ok ys -> (forall x, In x l -> forall y, f x = Ok y -> S x y) -> Forall2 S l ys.
Proof.
  revert ys. induction l as [|x l IH]; intros ys H HS.
  - injection H as <-. constructor.
  - cbn [traverse] in H. apply obind_ok in H as (y & Hy & H). apply obind_ok in H as (ys' & Hys & [= <-]).
    constructor.
    + apply HS; [left; reflexivity | exact Hy].
    + apply (IH _ Hys). intros x' Hin. apply HS. right. exact Hin.
Qed.

Lemma traverse_intro {A B} (f : A -> outcome B) l ys : Forall2 (fun x y => f x = Ok y) l ys -> traverse f l = Ok ys.
Proof. induction 1 as [|x y l ys Hxy _ IH]; cbn [traverse]; [reflexivity|]. rewrite Hxy, IH. reflexivity. Qed.

Lemma traverse_err {A B} (f : A -> outcome B) l e : traverse f l = SigmaErr e -> exists y, In y l /\ f y = SigmaErr e.
Proof.
  induction l as [|y r IH]; intros H; [discriminate|]. cbn [traverse] in H.
  destruct (f y) as [a|e'|] eqn:E; [|inversion H; subst e'; exists y; split; [left; reflexivity | exact E]|discriminate].
  destruct (traverse f r) as [b|e'|]; try discriminate. inversion H; subst e'.
  destruct (IH eq_refl) as (z & Hz & Ez). exists z. split; [right; exact Hz | exact Ez].
Qed.

Lemma ensures_traverse {A B} C (Q : B -> Prop) (f : A -> outcome B) l :
  (forall x, In x l -> ensures C Q (f x)) -> ensures C (Forall Q) (traverse f l).
Proof.
  induction l as [|x l IH]; intros H; cbn [traverse]; [constructor|].
  apply (ensures_bind C Q); [apply H; left; reflexivity|]. intros y Hy.
  apply (ensures_bind C (Forall Q)); [apply IH; intros z Hz; apply H; right; exact Hz|].
  intros ys Hys. constructor; assumption.
Qed.

Lemma traverse_safe {A B} (f : A -> outcome B) l : (forall x, In x l -> safe (f x)) -> safe (traverse f l).
Proof. intros H. exact (ensures_weaken _ _ _ _ (ensures_traverse False (fun _ => True) f l H) (fun _ _ => I)). Qed.

(* The code's outcome against the specification's option: both reject, or the code returns a value that has
   the property P and whose view f is the specification's result; a crash is never admitted. *)
Definition sim {A B} (f : A -> B) (P : A -> Prop) (r : outcome A) (s : option B) : Prop :=
  match r with
  | Ok a => s = Some (f a) /\ P a
  | SigmaErr _ => s = None
  | Crash _ => False
  end.

Lemma sim_bind {A B A' B'} (f : A -> B) (P : A -> Prop) (g : A' -> B') (Q : A' -> Prop) r s k k' :
  sim f P r s -> (forall a, P a -> sim g Q (k a) (k' (f a))) ->
  sim g Q (obind r k) (match s with Some b => k' b | None => None end).
Proof.
  destruct r as [a|e|e]; cbn; [intros [-> Ha] H; exact (H a Ha) | intros -> _; reflexivity | contradiction].
Qed.

Lemma sim_elim {A B} (f : A -> B) P r s : sim f P r s ->
  match r with Ok a => s = Some (f a) | SigmaErr _ => s = None | Crash _ => False end.
Proof. destruct r; cbn; tauto. Qed.

Lemma sim_intro {A B} (f : A -> B) (P : A -> Prop) r s :
  match r with Ok a => s = Some (f a) | SigmaErr _ => s = None | Crash _ => False end ->
  (forall a, r = Ok a -> P a) -> sim f P r s.
Proof. destruct r; cbn; auto. Qed.

Lemma sim_ok {A B} (f : A -> B) P r s : sim f P r s -> sim f (fun a => r = Ok a /\ P a) r s.
Proof. destruct r; cbn; intuition. Qed.

Definition orel {A B} (R : A -> B -> Prop) (x : outcome A) (y : outcome B) : Prop :=
  match x, y with
  | Ok a, Ok b => R a b
  | SigmaErr e, SigmaErr e' | Crash e, Crash e' => e = e'
  | _, _ => False
  end.
Lemma orel_bind {A B C D} (R : A -> B -> Prop) (S : C -> D -> Prop) x y f g :
  orel R x y -> (forall a b, R a b -> orel S (f a) (g b)) -> orel S (obind x f) (obind y g).
Proof. destruct x, y; cbn; try contradiction; auto. Qed.
