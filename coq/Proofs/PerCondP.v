(* C08 - "exactly one query per condition": the finalisation loop of convert_rule
     [finalize_query(rule, q, index, ...) for index, q in enumerate(queries)]
   (Model/Collection.v fin_all) neither drops, duplicates nor reorders queries and hands every query its own
   position; when it fails, it fails with the outcome of the first query (in order) whose finalisation fails. *)
From Coq Require Import NArith List Bool Arith.
From PS Require Import Base.Outcome Model.Collection Spec.Collection.
Import ListNotations.

Section PerCond.
Variables query drule crule : Type.
Variable conv1 : drule -> outcome (list query).
Variable finq : payload drule crule -> nat -> query -> outcome query.
Variable cpre : crule -> outcome unit.
Variable cpost : crule -> list (list query) -> outcome (list query).
Variable fcs : bool.

Notation fin_all := (fin_all query drule crule finq).
Notation finish := (finish query drule crule finq fcs).
Notation alone := (alone query drule crule conv1 finq cpre cpost fcs).

Lemma fin_all_pointwise : forall qs p i fqs,
  fin_all p i qs = Ok fqs ->
  length fqs = length qs /\
  forall k, k < length qs ->
    exists q q', nth_error qs k = Some q /\ nth_error fqs k = Some q' /\ finq p (i + k) q = Ok q'.
Proof.
  induction qs as [|q r IH]; intros p i fqs H; cbn [Collection.fin_all] in H.
  - injection H as <-. split; [reflexivity|]. intros k Hk. inversion Hk.
  - destruct (finq p i q) as [q'|e|c] eqn:Eq; cbn [obind] in H; try discriminate.
    destruct (fin_all p (S i) r) as [r'|e|c] eqn:Er; cbn [obind] in H; try discriminate.
    injection H as <-. destruct (IH _ _ _ Er) as [HL HP]. split; [cbn [length]; rewrite HL; reflexivity|].
    intros [|k] Hk.
    + exists q, q'. rewrite Nat.add_0_r. repeat split; assumption.
    + apply Nat.succ_lt_mono in Hk. destruct (HP k Hk) as (x & x' & H1 & H2 & H3).
      exists x, x'. rewrite Nat.add_succ_r. repeat split; assumption.
Qed.

(* the same functions as Spec.Collection.is_ok and Spec.Collection.err_of *)
Definition is_okb {A} (o : outcome A) : bool := match o with Ok _ => true | _ => false end.
Definition recast {A B} (o : outcome A) : outcome B :=
  match o with Ok _ => Crash 0 | SigmaErr e => SigmaErr e | Crash c => Crash c end.

Lemma fin_all_first_failure : forall qs p i,
  is_okb (fin_all p i qs) = false ->
  exists k q, nth_error qs k = Some q /\ is_okb (finq p (i + k) q) = false /\
              fin_all p i qs = recast (finq p (i + k) q) /\
              forall j qj, j < k -> nth_error qs j = Some qj -> is_okb (finq p (i + j) qj) = true.
Proof.
  induction qs as [|q r IH]; intros p i H; cbn [Collection.fin_all] in *; [discriminate|].
  destruct (finq p i q) as [q'|e|c] eqn:Eq; cbn [obind] in *.
  2, 3: exists 0, q; rewrite Nat.add_0_r, Eq; repeat split; intros j qj Hj; inversion Hj.
  (* q is finalised: the failure lies in the rest *)
  assert (Hr : is_okb (fin_all p (S i) r) = false) by (destruct (fin_all p (S i) r); [discriminate H | reflexivity..]).
  destruct (IH p (S i) Hr) as (k & x & H1 & H2 & H3 & H4). cbn [Nat.add] in H2, H3, H4.
  exists (S k), x. rewrite Nat.add_succ_r, H3. repeat split; try assumption.
  - destruct (finq p (S (i + k)) x); reflexivity.
  - intros [|j] qj Hj Hq; cbn [nth_error] in Hq.
    + injection Hq as <-. rewrite Nat.add_0_r, Eq. reflexivity.
    + rewrite Nat.add_succ_r. apply (H4 j qj); [apply Nat.succ_lt_mono, Hj | exact Hq].
Qed.

(* with the output off nothing is returned, but the finalisation done for the referring correlation rules can
   still fail *)
Lemma finish_ret p out br raw :
  ret (finish p out br raw) =
  obind raw (fun qs => if out then fin_all p 0 qs
                       else if fcs || negb br then obind (fin_all p 0 qs) (fun _ => Ok []) else Ok []).
Proof.
  unfold Collection.finish. destruct raw as [qs|e|c]; try reflexivity. cbn [obind].
  destruct (fcs || negb br); [|reflexivity]. destruct (fin_all p 0 qs), out; reflexivity.
Qed.

Lemma leaf_on_ret d br qs : conv1 d = Ok qs -> ret (alone (Leaf d true br)) = fin_all (PD d) 0 qs.
Proof. intros Hc. cbn [Spec.Collection.alone]. rewrite finish_ret, Hc. reflexivity. Qed.

(* a detection rule whose output is enabled: one emitted query per condition query, in order, each finalised
   with its own index *)
Theorem leaf_one_query_per_condition d br qs fqs :
  conv1 d = Ok qs ->
  ret (alone (Leaf d true br)) = Ok fqs ->
  length fqs = length qs /\
  forall k, k < length qs ->
    exists q q', nth_error qs k = Some q /\ nth_error fqs k = Some q' /\ finq (PD d) k q = Ok q'.
Proof. intros Hc H. rewrite (leaf_on_ret d br qs Hc) in H. exact (fin_all_pointwise _ _ _ _ H). Qed.

(* output switched off (referenced by a correlation rule without generate): no query is emitted, and the rule
   fails only if a finalisation it actually needs fails *)
Theorem leaf_output_off d br qs :
  conv1 d = Ok qs ->
  ret (alone (Leaf d false br)) = Ok [] \/
  (fcs || negb br = true /\ is_okb (fin_all (PD d) 0 qs) = false /\
   ret (alone (Leaf d false br)) = recast (fin_all (PD d) 0 qs)).
Proof.
  intros Hc. cbn [Spec.Collection.alone]. rewrite finish_ret, Hc. cbn [obind].
  destruct (fcs || negb br); [|left; reflexivity].
  destruct (fin_all (PD d) 0 qs); [left; reflexivity | right; repeat split..].
Qed.

(* a failing finalisation: the rule's outcome is the outcome of the first query whose finalisation fails *)
Theorem leaf_first_failing_condition d br qs :
  conv1 d = Ok qs ->
  is_okb (ret (alone (Leaf d true br))) = false ->
  exists k q, nth_error qs k = Some q /\
              ret (alone (Leaf d true br)) = recast (finq (PD d) k q) /\
              forall j qj, j < k -> nth_error qs j = Some qj -> is_okb (finq (PD d) j qj) = true.
Proof.
  intros Hc. rewrite (leaf_on_ret d br qs Hc). intros H.
  destruct (fin_all_first_failure qs (PD d) 0 H) as (k & q & H1 & _ & H2 & H3).
  exists k, q. exact (conj H1 (conj H2 H3)).
Qed.

End PerCond.
