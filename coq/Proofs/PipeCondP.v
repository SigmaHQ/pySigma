(* The gates of processing items (Model/PipeCond.v) against Spec/PipeSpec.v.  gate_spec: on a well-formed group the
   model's gate and the specification's group_eval have the same Ok values; the gates of an item on a rule, a
   detection item and a field name are its instances.  Then what the searching condition classes mean, what
   build_group accepts, and which ids a run of items leaves in the rule's applied set (history_rule). *)
From Coq Require Import NArith List Bool.
From PS Require Import Base.Chars Base.Outcome Model.PipeExpr Model.PipeCond Spec.PipeSpec Proofs.PipeExprP Proofs.OutcomeP Proofs.CharsP.
Import ListNotations.
Open Scope N_scope.

Lemma smem_In x l : smem x l = true <-> In x l.
Proof. exact (existsb_str_In x l). Qed.

(* sadd id l is add_new str_eqb l id *)
Lemma sadd_In x id l : In x (sadd id l) <-> In x (id :: l).
Proof. etransitivity; [apply (add_new_In str_eqb str_eqb_eq) | simpl; tauto]. Qed.

Lemma neg_xorb (n r : bool) : (if n then negb r else r) = xorb n r.
Proof. destruct n, r; reflexivity. Qed.

Section GateP.
  Context {C : Type}.

  (* what __post_init__ guarantees (identifiers resolved, every condition referenced) plus what a
     YAML mapping guarantees (distinct keys); build_group_wf below derives it from a successful build_group *)
  Definition wf_ngroup (g : ngroup C) : Prop :=
    match n_mode g with
    | MExpr e => (forall i, In i (ids e) -> assoc i (n_conds g) <> None)
                 /\ (forall kv, In kv (n_conds g) -> In (fst kv) (ids e))
                 /\ NoDup (map fst (n_conds g))
    | MLink _ => True
    end.

  Variable ev : C -> outcome bool.

  Lemma eval_all_ok l :
    (forall c, In c l -> exists b, ev c = Ok b) -> eval_all ev l = Ok (map (fun c => truth (ev c)) l).
  Proof.
    induction l as [|c l IH]; simpl; intros H; [reflexivity|].
    destruct (H c) as [b Hb]; [auto|]. rewrite Hb, IH by auto. reflexivity.
  Qed.

  Lemma eval_all_inv l bs : eval_all ev l = Ok bs -> forall c, In c l -> exists b, ev c = Ok b.
  Proof.
    revert bs. induction l as [|c l IH]; simpl; intros bs H c0 Hin; [contradiction|].
    destruct (ev c) eqn:E; try discriminate. simpl in H.
    destruct (eval_all ev l); try discriminate.
    destruct Hin as [<-|Hin]; eauto.
  Qed.

  Lemma defined_map g : defined ev g <-> forall c, In c (map snd (n_conds g)) -> exists b, ev c = Ok b.
  Proof. unfold defined. rewrite <- !Forall_forall, Forall_map. reflexivity. Qed.

  Theorem gate_ok g :
    wf_ngroup g -> defined ev g -> gate ev g = Ok (group_holds (fun c => truth (ev c)) g).
  Proof.
    intros Hwf Hall. unfold gate, gate_raw, group_holds, no_conds, wf_ngroup in *.
    destruct (n_mode g) as [l|e].
    - rewrite eval_all_ok by (apply defined_map; exact Hall).
      simpl. rewrite map_map, neg_xorb. destruct (n_conds g); reflexivity.
    - rewrite (eval_den _ (lookup_holds (fun c => truth (ev c)) (n_conds g))).
      + simpl. rewrite neg_xorb. destruct (n_conds g); reflexivity.
      + intros w Hin. unfold env_of, lookup_holds.
        destruct (assoc w (n_conds g)) as [c|] eqn:Ea; [|contradiction (proj1 Hwf w Hin)].
        destruct (Hall (w, c) (alookup_In w c _ Ea)) as [x Hx]. simpl in Hx. rewrite Hx. reflexivity.
  Qed.

  Theorem gate_inv g b : wf_ngroup g -> gate ev g = Ok b -> defined ev g.
  Proof.
    intros Hwf H. unfold gate, gate_raw in H. unfold wf_ngroup in Hwf.
    destruct (n_mode g) as [l|e].
    - destruct (eval_all ev (map snd (n_conds g))) eqn:E; try discriminate.
      apply defined_map. exact (eval_all_inv _ _ E).
    - intros kv Hin. destruct Hwf as [_ [Href Hnd]].
      destruct (eval_ex (env_of ev (n_conds g)) e) eqn:E; try discriminate.
      destruct (eval_ok_ids _ _ _ E (fst kv) (Href kv Hin)) as [x Hx].
      (* the key of kv is looked up to kv itself, the keys being distinct; In_alookup speaks of CharsP.alookup,
         of which assoc is a copy: the ascription converts *)
      unfold env_of in Hx. destruct kv as [k c]. simpl in Hx. rewrite (In_alookup k c _ Hnd Hin : assoc k _ = _) in Hx. eauto.
  Qed.

  Lemma first_error_none l : first_error ev l = None <-> forall c, In c l -> exists b, ev c = Ok b.
  Proof.
    unfold first_error. induction l as [|c l IH]; simpl.
    - split; [intros _ c []|reflexivity].
    - destruct (ev c) eqn:E; simpl;
        [|split; [discriminate|]; intros H; destruct (H c (or_introl eq_refl)) as [b Hb]; congruence ..].
      rewrite IH. split; [|auto]. intros H c0 [<-|Hin]; eauto.
  Qed.

  Lemma first_error_some l o : first_error ev l = Some o -> match o with Ok _ => False | _ => True end.
  Proof. intros H. apply find_some in H. destruct o; [destruct H; discriminate | exact I ..]. Qed.

  Lemma group_eval_ok g b :
    group_eval ev g = Ok b <-> defined ev g /\ b = group_holds (fun c => truth (ev c)) g.
  Proof.
    assert (D : first_error ev (map snd (n_conds g)) = None <-> defined ev g)
      by (rewrite first_error_none, defined_map; reflexivity).
    unfold group_eval. destruct (first_error ev (map snd (n_conds g))) as [o|] eqn:E.
    - apply first_error_some in E. split.
      + destruct o; [contradiction | discriminate ..].
      + intros [Hd _]. apply D in Hd. discriminate.
    - split.
      + intros H. injection H as <-. split; [apply D|]; reflexivity.
      + intros [_ ->]. reflexivity.
  Qed.

  Theorem gate_spec g b : wf_ngroup g -> gate ev g = Ok b <-> group_eval ev g = Ok b.
  Proof.
    intros Hwf. rewrite group_eval_ok. split.
    - intros H. pose proof (gate_inv g b Hwf H) as Hd. rewrite (gate_ok g Hwf Hd) in H. injection H as <-. auto.
    - intros [Hd ->]. exact (gate_ok g Hwf Hd).
  Qed.
End GateP.

Theorem empty_group_always {C} (ev : C -> outcome bool) (g : ngroup C) :
  wf_ngroup g -> n_conds g = [] -> gate ev g = Ok true.
Proof.
  intros Hwf He. rewrite (gate_ok ev g Hwf).
  - unfold group_holds. rewrite He. reflexivity.
  - intros kv. rewrite He. intros [].
Qed.

Lemma group_holds_ext {C} (h h' : C -> bool) (g : ngroup C) :
  (forall kv, In kv (n_conds g) -> h (snd kv) = h' (snd kv)) -> group_holds h g = group_holds h' g.
Proof.
  unfold group_holds. destruct (n_conds g) as [|kv0 m]; [reflexivity|]. intros H.
  f_equal. destruct (n_mode g) as [l|e].
  - f_equal. apply map_ext_in. exact H.
  - apply den_ext. intros w. unfold lookup_holds.
    destruct (assoc w (kv0 :: m)) as [c|] eqn:Ea; [|reflexivity]. exact (H (w, c) (alookup_In w c (kv0 :: m) Ea)).
Qed.

Lemma group_eval_ext {C} (ev ev' : C -> outcome bool) (g : ngroup C) :
  (forall kv, In kv (n_conds g) -> ev (snd kv) = ev' (snd kv)) -> group_eval ev g = group_eval ev' g.
Proof.
  intros H. unfold group_eval, first_error.
  assert (E : map ev (map snd (n_conds g)) = map ev' (map snd (n_conds g))).
  { rewrite !map_map. apply map_ext_in. exact H. }
  rewrite E, (group_holds_ext (fun c => truth (ev c)) (fun c => truth (ev' c))); [reflexivity|].
  intros kv Hin. rewrite (H kv Hin). reflexivity.
Qed.

Section TreeInd.
  Variable P : dtree -> Prop.
  Hypothesis Hl : forall d, P (DLeaf d).
  Hypothesis Hn : forall l, Forall P l -> P (DNode l).
  Fixpoint dtree_ind' (t : dtree) : P t :=
    match t with
    | DLeaf d => Hl d
    | DNode l => Hn l ((fix go (l : list dtree) : Forall P l :=
                          match l with [] => Forall_nil P | x :: r => Forall_cons x (dtree_ind' x) (go r) end) l)
    end.
End TreeInd.

Lemma leaves_node l : leaves (DNode l) = flat_map leaves l.
Proof. simpl. induction l as [|x r IH]; [reflexivity|]. simpl. rewrite <- IH. reflexivity. Qed.

Lemma find_item_leaves P t : find_item P t = existsb P (leaves t).
Proof.
  induction t as [d|l IH] using dtree_ind'.
  - simpl. rewrite orb_false_r. reflexivity.
  - rewrite leaves_node. simpl. induction IH as [|x r Hx _ IHr]; [reflexivity|].
    simpl. rewrite existsb_app, Hx, IHr. reflexivity.
Qed.

Lemma rule_find_leaves P r : rule_find P r = existsb P (rule_leaves r).
Proof.
  unfold rule_find, rule_leaves. induction (r_dets r) as [|d l IH]; [reflexivity|].
  simpl. rewrite existsb_app, find_item_leaves, IH. reflexivity.
Qed.

Lemma logsource_shortcut c p s r :
  logsource_match c p s r = (let '(rc, rp, rs) := r in ls_field_ok c rc && ls_field_ok p rp && ls_field_ok s rs).
Proof.
  destruct r as [[rc rp] rs]. unfold logsource_match.
  destruct (opt_str_eqb c rc) eqn:E1; simpl; [|reflexivity].
  destruct (opt_str_eqb p rp) eqn:E2; simpl; [|reflexivity].
  destruct (opt_str_eqb s rs) eqn:E3; simpl; [|reflexivity].
  change ls_field_ok with ocovers. rewrite !ocovers_eq by assumption. reflexivity.
Qed.

Lemma r_holds_eq w c : r_holds w c = rcond_eval w c.
Proof.
  destruct c; simpl; try reflexivity.
  - rewrite logsource_shortcut. destruct (r_ls (w_rule w)) as [[rc rp] rs]. reflexivity.
  - rewrite rule_find_leaves. reflexivity.
  - rewrite rule_find_leaves. reflexivity.
Qed.

Lemma ok_true (b : bool) : Ok b = Ok true <-> b = true.
Proof. split; [intros H; injection H; auto | intros ->; reflexivity]. Qed.

Theorem logsource_meaning c p s w :
  rcond_eval w (RLogsource c p s) = Ok true <-> logsource_spec c p s (r_ls (w_rule w)).
Proof.
  simpl. rewrite logsource_shortcut, ok_true. unfold logsource_spec. destruct (r_ls (w_rule w)) as [[rc rp] rs].
  rewrite <- !ocovers_spec, <- !andb_true_iff, andb_assoc. reflexivity.
Qed.

Lemma field_is_spec f it : field_is f it = true <-> exists x, f = Some x /\ d_field it = Some x.
Proof.
  unfold field_is. destruct (d_field it) as [a|], f as [b|];
    try (split; [discriminate | intros [x [? ?]]; discriminate]).
  rewrite str_eqb_eq. split; [intros ->; eauto | intros [x [E1 E2]]; congruence].
Qed.

Theorem contains_field_meaning f w :
  rcond_eval w (RContainsField f) = Ok true <-> contains_field_spec f (w_rule w).
Proof.
  simpl. rewrite rule_find_leaves, ok_true, existsb_exists. unfold contains_field_spec.
  setoid_rewrite field_is_spec. firstorder.
Qed.

Theorem contains_item_meaning f v w :
  rcond_eval w (RContainsItem f v) = Ok true <-> contains_item_spec f v (w_rule w).
Proof.
  simpl. rewrite rule_find_leaves, ok_true, existsb_exists. unfold contains_item_spec.
  setoid_rewrite andb_true_iff. setoid_rewrite field_is_spec. setoid_rewrite existsb_exists. firstorder.
Qed.

Lemma any_lazy_pure (bs : list bool) : any_lazy (map Ok bs) = Ok (existsb (fun b => b) bs).
Proof. induction bs as [|[|] bs IH]; [reflexivity | reflexivity | exact IH]. Qed.

(* a pure test asked of the field and of every referenced field: the lazy "or" finds what existsb finds *)
Lemma any_lazy_refs (p : option str -> bool) x vs :
  any_lazy (Ok x :: map (fun v => match v with VRef f => Ok (p (Some f)) | _ => Ok false end) vs)
  = Ok (x || existsb (fun f => p (Some f)) (flat_map (fun v => match v with VRef f => [f] | _ => [] end) vs)).
Proof.
  revert x. induction vs as [|v vs IH]; intros [|]; try reflexivity. destruct v; apply IH.
Qed.

Lemma any_lazy_same o (l : list sval) :
  any_lazy (o :: map (fun v => match v with VRef _ => o | _ => Ok false end) l) = o.
Proof.
  destruct o as [[|]| |]; try reflexivity. simpl.
  induction l as [|v l IH]; [reflexivity|]. destruct v; exact IH.
Qed.

Lemma f_holds_item_eq T ps d c : f_holds_item T ps d c = fcond_item ps d c.
Proof.
  destruct c; unfold f_holds_item, fcond_item; try reflexivity; symmetry.
  - exact (any_lazy_refs (include_holds fs) _ _).
  - exact (any_lazy_refs (include_re_holds ps0) _ _).
  - exact (any_lazy_refs (fun f => negb (include_holds fs f)) _ _).
  - exact (any_lazy_refs (fun f => negb (include_re_holds ps0 f)) _ _).
  - exact (any_lazy_same (match_state (p_state ps) k v op) _).
Qed.

(* a field name condition on a name: the specification reads the ghost history, the code its bookkeeping.
   Nothing here shows that a run keeps the two in agreement, and after one renaming they differ
   (PipeStepP.field_history_lost); the step theorem uses field_gate only through no_fapplied. *)
Definition ghost_agrees (T : ghost) (ps : pstate) : Prop :=
  forall f id, smem id (ghist T f) = smem id (ftracked ps f).

Lemma f_holds_eq T ps f c :
  match c with FApplied _ => False | _ => True end \/ ghost_agrees T ps -> f_holds T ps f c = fcond_name ps f c.
Proof.
  destruct c; simpl; intros H; try reflexivity; try (destruct f; reflexivity).
  destruct f as [x|], H as [[]|H]; [|reflexivity]. rewrite (H x id). reflexivity.
Qed.

Definition no_fapplied (g : ngroup fcond) : Prop :=
  forall kv, In kv (n_conds g) -> match snd kv with FApplied _ => False | _ => True end.

Lemma has_fapplied_false g : has_fapplied g = false -> no_fapplied g.
Proof.
  unfold has_fapplied. rewrite <- not_true_iff_false, existsb_exists. intros H kv Hin.
  destruct (snd kv) eqn:E; auto. apply H. exists kv. rewrite E. auto.
Qed.

Theorem rule_gate it w b :
  wf_ngroup (i_rule it) -> match_rule_conditions it w = Ok b <-> applies_rule it w = Ok b.
Proof.
  intros Hwf. unfold match_rule_conditions, applies_rule.
  rewrite (group_eval_ext (r_holds w) (rcond_eval w)) by (intros; apply r_holds_eq).
  apply gate_spec. exact Hwf.
Qed.

Lemma detitem_as_gates it ps d :
  match_detection_item it ps d =
  obind (gate (dcond_eval ps d) (i_det it)) (fun a => obind (gate (fcond_item ps d) (i_field it)) (fun b => Ok (a && b))).
Proof.
  unfold match_detection_item, gate. rewrite obind_assoc.
  destruct (gate_raw (dcond_eval ps d) (i_det it)); try reflexivity. simpl.
  rewrite obind_assoc. destruct (gate_raw (fcond_item ps d) (i_field it)); reflexivity.
Qed.

Theorem detitem_gate it T ps d b :
  wf_ngroup (i_det it) -> wf_ngroup (i_field it) ->
  match_detection_item it ps d = Ok b <-> applies_item it T ps d = Ok b.
Proof.
  intros Hd Hf. rewrite detitem_as_gates. unfold applies_item.
  rewrite (group_eval_ext (f_holds_item T ps d) (fcond_item ps d)) by (intros; apply f_holds_item_eq).
  apply obind_iff; [intros a; exact (gate_spec _ _ a Hd)|].
  intros a. apply obind_iff; [intros c; exact (gate_spec _ _ c Hf) | reflexivity].
Qed.

Theorem field_gate it T ps f b :
  wf_ngroup (i_field it) -> (no_fapplied (i_field it) \/ ghost_agrees T ps) ->
  match_field_name it ps f = Ok b <-> applies_field it T ps f = Ok b.
Proof.
  intros Hwf Hg. unfold match_field_name, applies_field.
  rewrite (group_eval_ext (f_holds T ps f) (fcond_name ps f)); [exact (gate_spec _ _ b Hwf)|].
  intros kv Hin. apply f_holds_eq. destruct Hg as [Hn|Ha]; [left; exact (Hn kv Hin) | right; exact Ha].
Qed.

Theorem field_in_value_gate it ps f : match_field_in_value it ps f = match_field_name it ps (Some f).
Proof. reflexivity. Qed.

(* _check_conditions / _resolve_condition_expression *)
Theorem build_group_spec {C} (g : rgroup C) (n : ngroup C) :
  build_group g = Ok n ->
  n_neg n = g_neg g /\
  match g_expr g with
  | None => n_conds n = form_conds (g_form g) /\
            n_mode n = MLink (match g_link g with Some l => l | None => LAnd end)
  | Some s => exists e m, parse_expr s = Some e /\ g_link g = None /\ g_form g = CMap m /\
                          n_conds n = m /\ n_mode n = MExpr e /\
                          (forall i, In i (ids e) -> assoc i m <> None) /\
                          (forall kv, In kv m -> In (fst kv) (ids e))
  end.
Proof.
  unfold build_group. destruct (g_expr g) as [s|].
  - destruct (parse_expr s) as [e|]; [|discriminate].
    destruct (g_link g); [discriminate|]. destruct (g_form g) as [l|m]; [discriminate|].
    destruct (forallb _ (ids e)) eqn:E1; [|discriminate].
    destruct (forallb _ m) eqn:E2; [|discriminate].
    rewrite forallb_forall in E1, E2.
    intros H. injection H as <-. split; [reflexivity|].
    exists e, m. repeat split; try reflexivity.
    + intros i Hin. specialize (E1 i Hin). destruct (assoc i m); discriminate.
    + intros kv Hin. apply smem_In. exact (E2 kv Hin).
  - intros H. injection H as <-. auto.
Qed.

Theorem build_group_errors {C} (g : rgroup C) : forall t, build_group g <> Crash t.
Proof.
  intros t. unfold build_group. destruct (g_expr g) as [s|]; [|discriminate].
  destruct (parse_expr s); [|discriminate]. destruct (g_link g); [discriminate|].
  destruct (g_form g); [discriminate|]. destruct (forallb _ (ids e)); [|discriminate].
  destruct (forallb _ m); discriminate.
Qed.

Lemma build_group_wf {C} (g : rgroup C) n :
  build_group g = Ok n -> NoDup (map fst (form_conds (g_form g))) -> wf_ngroup n.
Proof.
  intros H Hnd. pose proof (build_group_spec g n H) as [_ S]. unfold wf_ngroup.
  destruct (g_expr g) as [s|].
  - destruct S as [e [m [_ [_ [Hf [Hc [Hm [Hr Hu]]]]]]]]. rewrite Hm, Hc.
    rewrite Hf in Hnd. auto.
  - destruct S as [_ Hm]. rewrite Hm. exact I.
Qed.

Lemma transform_items it w :
  is_item_transf (i_tr it) = true ->
  transform it w =
  obind (if is_renaming (i_tr it) then map_fields it (w_ps w) (r_fields (w_rule w))
         else Ok (r_fields (w_rule w), w_ps w)) (fun fl =>
  obind (apply_dets it (snd fl) (r_dets (w_rule w))) (fun x =>
  Ok {| w_rule := set_rule (w_rule w) (r_ls (w_rule w)) (r_custom (w_rule w)) (fst fl)
                           (sadd (i_id it) (r_applied (w_rule w))) (fst x);
        w_ps := snd x |})).
Proof. unfold transform. destruct (i_tr it); try discriminate; reflexivity. Qed.

Lemma transform_applied it w w' :
  transform it w = Ok w' -> r_applied (w_rule w') = sadd (i_id it) (r_applied (w_rule w)).
Proof.
  destruct (is_item_transf (i_tr it)) eqn:Hi.
  - rewrite transform_items by exact Hi. intros H.
    apply obind_ok in H. destruct H as [fl [_ H]]. apply obind_ok in H. destruct H as [x [_ H]].
    injection H as <-. reflexivity.
  - unfold transform. destruct (i_tr it) as [k v|[c|] [p|] [s|]|a v| | | |]; try discriminate Hi;
      intros H; try discriminate H; injection H as <-; reflexivity.
Qed.

Lemma step_inv it w w' b :
  step it w = Ok (w', b) ->
  match_rule_conditions it w = Ok b /\
  (if b then transform it w = Ok w' else w' = w).
Proof.
  unfold step. destruct (match_rule_conditions it w) as [[|]| |]; try discriminate; simpl.
  - destruct (transform it w) as [w1| |]; try discriminate. intros H; injection H as <- <-. auto.
  - intros H; injection H as <- <-. auto.
Qed.

(* the ids of the items whose rule conditions held at their turn *)
Fixpoint fired (its : list item) (w : world) : list str :=
  match its with
  | [] => []
  | it :: r => match step it w with
               | Ok (w', b) => (if b then [i_id it] else []) ++ fired r w'
               | _ => []
               end
  end.

Lemma last_cons {A} (l : list A) : forall a d, last (a :: l) d = last l a.
Proof.
  induction l as [|b l IH]; intros a d; [reflexivity|].
  change (last (a :: b :: l) d) with (last (b :: l) d). rewrite (IH b d), (IH b a). reflexivity.
Qed.

Definition final (w : world) (snaps : list (world * bool)) : world := last (map fst snaps) w.

Theorem history_rule its w snaps err id :
  run its w = (snaps, err) ->
  (In id (r_applied (w_rule (final w snaps))) <-> In id (r_applied (w_rule w)) \/ In id (fired its w)).
Proof.
  revert w snaps err. induction its as [|it r IH]; intros w snaps err H; simpl in H |- *.
  - injection H as <- _. simpl. tauto.
  - destruct (step it w) as [[w' b]| |] eqn:E; [|injection H as <- _; simpl; tauto ..].
    destruct (run r w') as [l e] eqn:Er. injection H as <- _.
    unfold final. simpl map. rewrite last_cons. fold (final w' l).
    rewrite (IH w' l e Er).
    apply step_inv in E. destruct E as [_ E]. destruct b; simpl.
    + rewrite (transform_applied _ _ _ E), sadd_In. simpl. tauto.
    + subst. reflexivity.
Qed.

Inductive reaches : list item -> world -> world -> Prop :=
| reach_nil w : reaches [] w w
| reach_cons it r w w' b w'' : step it w = Ok (w', b) -> reaches r w' w'' -> reaches (it :: r) w w''.

Theorem fired_spec its w id :
  In id (fired its w) <->
  exists pre it post wk w' , its = pre ++ it :: post /\ reaches pre w wk /\ i_id it = id /\
                             step it wk = Ok (w', true).
Proof.
  split.
  - revert w. induction its as [|it r IH]; intros w; simpl; [contradiction|].
    destruct (step it w) as [[w' b]| |] eqn:E; try contradiction.
    intros H. apply in_app_or in H. destruct H as [H|H].
    + destruct b; [|contradiction]. destruct H as [<-|[]].
      exists [], it, r, w, w'. repeat split; auto. constructor.
    + destruct (IH w' H) as [pre [it0 [post [wk [w1 [-> [Hr Hs]]]]]]].
      exists (it :: pre), it0, post, wk, w1. repeat split; try apply Hs. econstructor; eassumption.
  - intros [pre [it [post [wk [w' [-> [Hr [<- Hs]]]]]]]].
    induction Hr as [w|it0 r w w1 b wk H _ IH]; simpl.
    + rewrite Hs. left. reflexivity.
    + rewrite H. apply in_or_app. right. exact (IH Hs).
Qed.
