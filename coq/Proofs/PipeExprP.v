(* The condition-expression parser and evaluator of Model/PipeExpr.v.  Completeness only: tokens that spell a tree
   of the grammar Spec.PipeSpec.SOr, written out by `unlex` (one blank after each token, the last one too), parse to
   that tree (parse_expr_complete); that a text which parse_expr accepts spells a tree is not shown.  eval_den: the
   evaluator computes the meaning `den` of a tree. *)
From Coq Require Import List Bool Arith Lia.
From PS Require Import Base.Chars Base.Outcome Model.PipeExpr Spec.PipeSpec.
Import ListNotations.
Local Open Scope nat_scope.

(* Every recursive call of the parser is followed by the same three-way continuation. *)
Definition pbind (x no : pres) (k : ex -> list tok -> pres) : pres :=
  match x with Parsed e r => k e r | Fail => no | OutOfFuel => OutOfFuel end.

Lemma pe_S f lv ts :
  pe (S f) lv ts =
  match lv with
  | O => match ts with
         | TW w :: r => Parsed (EId w) r
         | TL :: r => pbind (pe f 3 r) Fail (fun e r' => match r' with TR :: r'' => Parsed e r'' | _ => Fail end)
         | _ => Fail end
  | 1%nat => match ts with
         | TW w :: r => if str_eqb w w_not then pbind (pe f 1 r) (pe f 0 ts) (fun e r' => Parsed (ENot e) r')
                        else pe f 0 ts
         | _ => pe f 0 ts end
  | S k => pbind (pe f k ts) Fail (loop f lv)
  end.
Proof. destruct lv as [|[|k]]; reflexivity. Qed.

Lemma loop_S f lv acc ts :
  loop (S f) lv acc ts =
  match ts with
  | TW w :: r =>
    if str_eqb w (op_word lv)
    then pbind (pe f (Nat.pred lv) r) (Parsed acc ts) (fun e r' => loop f lv (mk_bin lv acc e) r')
    else Parsed acc ts
  | _ => Parsed acc ts
  end.
Proof. reflexivity. Qed.

Definition below (x y : pres) : Prop := x <> OutOfFuel -> y = x.

Lemma below_refl x : below x x.
Proof. intros _. reflexivity. Qed.

Lemma below_bind x x' no no' k k' :
  below x x' -> below no no' -> (forall e r, below (k e r) (k' e r)) -> below (pbind x no k) (pbind x' no' k').
Proof.
  intros Hx Hn Hk H. destruct x; simpl in H; [|contradiction H; reflexivity|]; rewrite Hx by discriminate.
  - apply Hn, H.
  - apply Hk, H.
Qed.

Lemma mono f : forall f', f <= f' ->
  (forall lv ts, below (pe f lv ts) (pe f' lv ts)) /\
  (forall lv acc ts, below (loop f lv acc ts) (loop f' lv acc ts)).
Proof.
  induction f as [|f IH]; intros f' Hle.
  - split; intros; intros H; contradiction H; reflexivity.
  - destruct f' as [|f']; [lia|]. destruct (IH f') as [IHp IHl]; [lia|]. split; intros.
    + rewrite !pe_S. destruct lv as [|[|k]], ts as [|[w| |] r]; try destruct (str_eqb w w_not);
        auto using below_bind, below_refl.
    + rewrite !loop_S. destruct ts as [|[w| |] r]; try destruct (str_eqb w (op_word lv));
        auto using below_bind, below_refl.
Qed.

Lemma pe_mono f f' lv ts e r : pe f lv ts = Parsed e r -> f <= f' -> pe f' lv ts = Parsed e r.
Proof. intros H Hle. rewrite (proj1 (mono f f' Hle) lv ts); [exact H | rewrite H; discriminate]. Qed.
Lemma loop_mono f f' lv acc ts e r : loop f lv acc ts = Parsed e r -> f <= f' -> loop f' lv acc ts = Parsed e r.
Proof. intros H Hle. rewrite (proj2 (mono f f' Hle) lv acc ts); [exact H | rewrite H; discriminate]. Qed.

Definition ends (P : list tok -> Prop) (x : pres) : Prop :=
  x <> OutOfFuel /\ forall e r, x = Parsed e r -> P r.

Lemma ends_fail P : ends P Fail.
Proof. split; discriminate. Qed.

Lemma ends_parsed (P : list tok -> Prop) e r : P r -> ends P (Parsed e r).
Proof. intros H. split; [discriminate|]. intros e' r' E. injection E as _ <-. exact H. Qed.

Lemma ends_bind (Q P : list tok -> Prop) x no k :
  ends Q x -> ends P no -> (forall e r, Q r -> ends P (k e r)) -> ends P (pbind x no k).
Proof.
  intros [N L] Hn Hk. destruct x; simpl; [exact Hn | contradiction N; reflexivity | exact (Hk _ _ (L _ _ eq_refl))].
Qed.

Lemma ends_weaken (P Q : list tok -> Prop) x : (forall r, P r -> Q r) -> ends P x -> ends Q x.
Proof. intros H [N L]. split; [exact N|]. intros e r E. exact (H _ (L _ _ E)). Qed.

(* Four units per token: behind an opening parenthesis level 0 calls level 3, which goes down to level 0 again, one
   unit per call.  That the rest is shorter is part of the statement because the loop, after an operand, goes on
   from the rest with the fuel that is left. *)
Lemma fuel_bound : forall f,
  (forall lv ts, 4 * length ts + lv + 1 <= f -> ends (fun r => length r < length ts) (pe f lv ts)) /\
  (forall lv acc ts, 4 * length ts + lv + 1 <= f -> ends (fun r => length r <= length ts) (loop f lv acc ts)).
Proof.
  induction f as [|f [IHp IHl]]; split; intros; try lia.
  - rewrite pe_S. destruct lv as [|[|k]].
    + destruct ts as [|[w| |] r]; simpl length in *; try apply ends_fail.
      * apply ends_parsed. lia.
      * apply (ends_bind (fun r' => length r' < length r)); [apply IHp; lia | apply ends_fail |].
        intros e [|[w| |] r'] L; try apply ends_fail. apply ends_parsed. simpl in L. lia.
    + assert (A0 : ends (fun r => length r < length ts) (pe f 0 ts)) by (apply IHp; lia).
      destruct ts as [|[w| |] r]; try exact A0. destruct (str_eqb w w_not); [|exact A0].
      simpl length in *. apply (ends_bind (fun r' => length r' < length r)); [apply IHp; lia | exact A0 |].
      intros e r' L. apply ends_parsed. lia.
    + apply (ends_bind (fun r => length r < length ts)); [apply IHp; lia | apply ends_fail |].
      intros e r L. apply (ends_weaken (fun r' => length r' <= length r)); [lia | apply IHl; lia].
  - rewrite loop_S. destruct ts as [|[w| |] r]; try (apply ends_parsed; lia).
    destruct (str_eqb w (op_word lv)); [|apply ends_parsed; lia].
    simpl length in *.
    apply (ends_bind (fun r' => length r' < length r)); [apply IHp; lia | apply ends_parsed; simpl; lia |].
    intros e r' L. apply (ends_weaken (fun r0 => length r0 <= length r')); [lia | apply IHl; lia].
Qed.

Lemma enough : forall f,
  (forall lv ts, lv <= 3 -> 4 * length ts + lv + 1 <= f ->
     pe f lv ts <> OutOfFuel /\ (forall e r, pe f lv ts = Parsed e r -> length r < length ts)) /\
  (forall lv acc ts, 2 <= lv <= 3 -> 4 * length ts + 4 <= f ->
     loop f lv acc ts <> OutOfFuel /\ (forall e r, loop f lv acc ts = Parsed e r -> length r <= length ts)).
Proof. intros f. destruct (fuel_bound f) as [P L]. split; intros; [apply P | apply L]; lia. Qed.

Definition PE lv ts e r := exists f, pe f lv ts = Parsed e r.
Definition LP lv acc ts e r := exists f, loop f lv acc ts = Parsed e r.

Lemma PE_fuel lv ts e r f : PE lv ts e r -> 4 * length ts + lv + 1 <= f -> pe f lv ts = Parsed e r.
Proof.
  intros [f0 H] Hf. destruct (Nat.le_ge_cases f0 f) as [Hle|Hle]; [exact (pe_mono _ _ _ _ _ _ H Hle)|].
  rewrite <- H. symmetry. apply (mono _ _ Hle), (fuel_bound f), Hf.
Qed.

Definition nothead (w : str) (ts : list tok) : Prop :=
  match ts with TW w' :: _ => str_eqb w' w = false | _ => True end.

Lemma PE_id w r : PE 0 (TW w :: r) (EId w) r.
Proof. exists 1. reflexivity. Qed.

Lemma PE_par ts e r : PE 3 ts e (TR :: r) -> PE 0 (TL :: ts) e r.
Proof. intros [f H]. exists (S f). rewrite pe_S, H. reflexivity. Qed.

Lemma PE_not ts e r : PE 1 ts e r -> PE 1 (TW w_not :: ts) (ENot e) r.
Proof. intros [f H]. exists (S f). rewrite pe_S, str_eqb_refl, H. reflexivity. Qed.

Lemma PE_skip1 ts e r : PE 0 ts e r -> nothead w_not ts -> PE 1 ts e r.
Proof.
  intros [f H] Hh. exists (S f). rewrite pe_S.
  destruct ts as [|[w| |] r0]; try exact H. simpl in Hh. rewrite Hh. exact H.
Qed.

Lemma PE_bin k ts e0 r0 e r : PE (S k) ts e0 r0 -> LP (S (S k)) e0 r0 e r -> PE (S (S k)) ts e r.
Proof.
  intros [f1 H1] [f2 H2]. exists (S (f1 + f2)).
  rewrite pe_S, (pe_mono _ (f1 + f2) _ _ _ _ H1) by lia.
  apply (loop_mono _ _ _ _ _ _ _ H2). lia.
Qed.

Lemma LP_stop lv acc ts : nothead (op_word lv) ts -> LP lv acc ts acc ts.
Proof.
  intros Hh. exists 1. rewrite loop_S. destruct ts as [|[w| |] r]; try reflexivity.
  simpl in Hh. rewrite Hh. reflexivity.
Qed.

Lemma LP_step lv acc r e1 r1 e r' :
  PE (Nat.pred lv) r e1 r1 -> LP lv (mk_bin lv acc e1) r1 e r' -> LP lv acc (TW (op_word lv) :: r) e r'.
Proof.
  intros [f1 H1] [f2 H2]. exists (S (f1 + f2)).
  rewrite loop_S, str_eqb_refl, (pe_mono _ (f1 + f2) _ _ _ _ H1) by lia.
  apply (loop_mono _ _ _ _ _ _ _ H2). lia.
Qed.

(* What reading an operand sequence of the left-associative level S (S k) establishes before the level is
   closed: the first operand has been read, and whatever the loop then returns from the tree e built so far
   and the input rest still to come, it returns from there. *)
Definition Chain k ts e rest :=
  exists e0 r0, PE (S k) ts e0 r0 /\ forall x r, LP (S (S k)) e rest x r -> LP (S (S k)) e0 r0 x r.

Lemma chain_one k ts e rest : PE (S k) ts e rest -> Chain k ts e rest.
Proof. intros P. exists e, rest. auto. Qed.

Lemma chain_more k ts e1 ts2 e2 rest :
  Chain k ts e1 (TW (op_word (S (S k))) :: ts2) -> PE (S k) ts2 e2 rest ->
  Chain k ts (mk_bin (S (S k)) e1 e2) rest.
Proof.
  intros [e0 [r0 [P C]]] P2. exists e0, r0. split; [exact P|].
  intros x r L. exact (C _ _ (LP_step (S (S k)) _ _ _ _ _ _ P2 L)).
Qed.

Lemma chain_close k ts e rest : Chain k ts e rest -> nothead (op_word (S (S k))) rest -> PE (S (S k)) ts e rest.
Proof. intros [e0 [r0 [P C]]] Hh. exact (PE_bin _ _ _ _ _ _ P (C _ _ (LP_stop _ _ _ Hh))). Qed.

Lemma atom_head ts e rest : SAtom ts e -> nothead w_not (ts ++ rest).
Proof.
  intros [w H0|ts' e' _]; simpl; [|exact I].
  unfold ident_ok, is_kw in H0. apply orb_false_iff in H0. destruct H0 as [H0 _].
  apply orb_false_iff in H0. apply H0.
Qed.

(* The and- and or-level conclude Chain, not PE: after `a and b` the loop of the level is still open (another
   `and` may follow in rest, and chain_more goes on from there), while PE at that level says the loop has stopped,
   which needs that the operator does not follow (chain_close).  The operands of `or` are and-levels that have to
   be closed before the or-loop goes on, so SOr asks that no `and` follows; what follows an SAnd is free. *)
Lemma spells_complete :
  (forall ts e, SAtom ts e -> forall rest, PE 0 (ts ++ rest) e rest) /\
  (forall ts e, SNot ts e -> forall rest, PE 1 (ts ++ rest) e rest) /\
  (forall ts e, SAnd ts e -> forall rest, Chain 0 (ts ++ rest) e rest) /\
  (forall ts e, SOr ts e -> forall rest, nothead w_and rest -> Chain 1 (ts ++ rest) e rest).
Proof.
  apply spells_ind.
  - (* identifier *) intros w Hw rest. apply PE_id.
  - (* parentheses *) intros ts e _ IH rest. simpl. rewrite <- app_assoc.
    apply PE_par, (chain_close 1); [apply IH|]; exact I.
  - (* atom as not-level *) intros ts e Ha IH rest. apply PE_skip1; [apply IH | exact (atom_head _ _ _ Ha)].
  - (* not *) intros ts e _ IH rest. apply PE_not, IH.
  - (* not-level as and-level *) intros ts e _ IH rest. apply chain_one, IH.
  - (* and *) intros ts1 e1 ts2 e2 _ IH1 _ IH2 rest. rewrite <- app_assoc.
    apply (chain_more 0 _ e1 (ts2 ++ rest) e2); [apply IH1 | apply IH2].
  - (* and-level as or-level *) intros ts e _ IH rest Hh. apply chain_one, (chain_close 0); [apply IH | exact Hh].
  - (* or *) intros ts1 e1 ts2 e2 _ IH1 _ IH2 rest Hh. rewrite <- app_assoc.
    apply (chain_more 1 _ e1 (ts2 ++ rest) e2); [apply IH1; reflexivity | apply (chain_close 0); [apply IH2 | exact Hh]].
Qed.

Theorem parse_tokens_complete ts e : SOr ts e -> parse_tokens ts = Some e.
Proof.
  intros H. pose proof (proj2 (proj2 (proj2 spells_complete)) ts e H [] I) as HC. rewrite app_nil_r in HC.
  unfold parse_tokens. rewrite (PE_fuel _ _ _ _ _ (chain_close 1 _ _ _ HC I)); [reflexivity|].
  unfold fuel_for. lia.
Qed.

Definition word_ok (w : str) : Prop := w <> [] /\ forallb is_ident_char w = true.
Definition tok_ok (t : tok) : Prop := match t with TW w => word_ok w | _ => True end.

Definition tok_text (t : tok) : str := match t with TW w => w | TL => [c_lpar] | TR => [c_rpar] end.
Fixpoint unlex (ts : list tok) : str :=
  match ts with [] => [] | t :: r => tok_text t ++ c_space :: unlex r end.

Lemma lex_word w cur s : forallb is_ident_char w = true -> lex cur (w ++ s) = lex (rev w ++ cur) s.
Proof.
  revert cur. induction w as [|c w IH]; intros cur H; simpl; [reflexivity|].
  simpl in H. apply andb_true_iff in H. destruct H as [Hc Hw].
  rewrite Hc, IH, <- app_assoc by exact Hw. reflexivity.
Qed.

Lemma lex_unlex ts : Forall tok_ok ts -> lex [] (unlex ts) = Some ts.
Proof.
  induction 1 as [|t ts Ht _ IH]; [reflexivity|].
  destruct t as [w| |]; simpl; [|rewrite IH; reflexivity ..].
  destruct Ht as [Hne Hid]. rewrite lex_word, app_nil_r by exact Hid. simpl.
  rewrite IH. simpl. unfold flush. rewrite rev_involutive.
  destruct (rev w) eqn:E; [|reflexivity].
  contradiction Hne. rewrite <- (rev_involutive w), E. reflexivity.
Qed.

Theorem parse_expr_complete ts e : Forall tok_ok ts -> SOr ts e -> parse_expr (unlex ts) = Some e.
Proof.
  intros Hok Hs. unfold parse_expr. rewrite lex_unlex by exact Hok. exact (parse_tokens_complete _ _ Hs).
Qed.

Lemma ids_nonempty e : ids e <> [].
Proof.
  induction e as [w|a IH|a IH b _|a IH b _]; simpl; [discriminate | exact IH | ..];
    intros H; apply app_eq_nil in H; exact (IH (proj1 H)).
Qed.

Lemma eval_den env benv e :
  (forall w, In w (ids e) -> env w = Ok (benv w)) -> eval_ex env e = Ok (den benv e).
Proof.
  induction e as [w|a IH|a IHa b IHb|a IHa b IHb]; simpl; intros H.
  - apply H. left. reflexivity.
  - rewrite IH by exact H. reflexivity.
  - rewrite IHa, IHb by auto using in_or_app. reflexivity.
  - rewrite IHa, IHb by auto using in_or_app. reflexivity.
Qed.

Lemma den_ext env env' e : (forall w, env w = env' w) -> den env e = den env' e.
Proof. intros H. induction e; simpl; congruence. Qed.

Lemma eval_ok_ids env e b : eval_ex env e = Ok b -> forall w, In w (ids e) -> exists x, env w = Ok x.
Proof.
  revert b. induction e as [w|a IH|a IHa c IHc|a IHa c IHc]; simpl; intros b H w0 Hin.
  - destruct Hin as [<-|[]]. eauto.
  - destruct (eval_ex env a); try discriminate. eauto.
  - destruct (eval_ex env a), (eval_ex env c); try discriminate. apply in_app_or in Hin. destruct Hin; eauto.
  - destruct (eval_ex env a), (eval_ex env c); try discriminate. apply in_app_or in Hin. destruct Hin; eauto.
Qed.
