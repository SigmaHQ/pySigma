(* One pipeline step of the model against the step specification: a refutation witness for the history kept
   by field name, and the theorem on the domain where the code meets the specification. *)
From Coq Require Import NArith List Bool.
From PS Require Import Base.Chars Base.Outcome Model.PipeCond Spec.PipeSpec
     Proofs.OutcomeP Proofs.PipeCondP.
Import ListNotations.
Open Scope N_scope.

Definition g0 {C} : ngroup C := {| n_conds := []; n_mode := MLink LAnd; n_neg := false |}.
Definition mk_item id tr gr gd gf : item := {| i_id := id; i_tr := tr; i_rule := gr; i_det := gd; i_field := gf |}.
Definition leaf f vs := DLeaf {| d_field := Some f; d_vals := vs; d_applied := [] |}.
Definition world1 (fields : list str) (ls : list dtree) : world :=
  {| w_rule := {| r_ls := (None, Some [119], None); r_tags := []; r_static := []; r_custom := [];
                  r_fields := fields; r_applied := []; r_dets := [([115], DNode ls)] |};
     w_ps := init_ps |}.

Definition s_a : str := [97].
Definition s_b : str := [98].
Definition i1 : str := [105; 49].
Definition i2 : str := [105; 50].

(* "Was item i1 applied to this field name", asked by a second renaming.  rename_item renames the field of a
   detection item without calling `track` (only map_fields and map_refs do), so after f1_it1 has renamed b to b_1
   the bookkeeping of the code is empty while the history of the specification has b_1 -> {i1}: f1_it2 renames
   b_1 in the specification and leaves it in the code. *)
Definition f1_it1 := mk_item i1 (TSuffix [95; 49]) g0 g0 g0.
Definition f1_it2 := mk_item i2 (TSuffix [95; 50]) g0 g0
                             {| n_conds := [([], FApplied i1)]; n_mode := MLink LAnd; n_neg := false |}.
Definition f1_w := world1 [] [leaf s_b [VStr [120]]].

Theorem field_history_lost :
  exists it1 it2 w w1 w2 w2' T1 T2,
    has_fapplied (i_field it2) = true /\
    step it1 w = Ok (w1, true) /\ sp_step it1 [] w = Ok (w1, true, T1) /\
    step it2 w1 = Ok (w2, true) /\ sp_step it2 T1 w1 = Ok (w2', true, T2) /\
    r_dets (w_rule w2) <> r_dets (w_rule w2').
Proof.
  exists f1_it1, f1_it2, f1_w. do 5 eexists.
  repeat apply conj; [reflexivity | vm_compute; reflexivity .. |]. vm_compute. discriminate.
Qed.

Lemma dom_of_safe it : tracking_safe it = true -> is_renaming (i_tr it) = true -> no_fapplied (i_field it).
Proof.
  unfold tracking_safe. intros Hts Hr. rewrite Hr in Hts.
  apply has_fapplied_false. destruct (has_fapplied (i_field it)); [discriminate|reflexivity].
Qed.

Lemma applies_field_by_state it T ps ps' f : p_state ps = p_state ps' -> applies_field it T ps f = applies_field it T ps' f.
Proof.
  intros Hs. apply group_eval_ext. intros kv _. destruct (snd kv); simpl; try reflexivity. rewrite Hs. reflexivity.
Qed.

Lemma applies_item_by_state it T ps ps' d : p_state ps = p_state ps' -> applies_item it T ps d = applies_item it T ps' d.
Proof.
  intros Hs. unfold applies_item.
  rewrite (group_eval_ext (d_holds ps d) (d_holds ps' d)),
          (group_eval_ext (f_holds_item T ps d) (f_holds_item T ps' d)); [reflexivity | |];
    intros kv _; destruct (snd kv); simpl; try reflexivity; rewrite Hs; reflexivity.
Qed.

Lemma track_state ps src dst id : p_state (track ps src dst id) = p_state ps.
Proof. unfold track. destruct (list_eqb str_eqb [src] dst); reflexivity. Qed.

Section Step.
  Variable it : item.
  Variable T : ghost.
  Variable ps0 : pstate.
  Hypothesis Hwd : wf_ngroup (i_det it).
  Hypothesis Hwf : wf_ngroup (i_field it).

  (* The model threads the bookkeeping through its loops; the specification evaluates everything on ps0.
     keeps m P: started with the pipeline state of ps0, a successful run of m leaves that state as it was
     and returns a value with P. *)
  Definition keeps {A} (m : pstate -> outcome (A * pstate)) (P : A -> Prop) : Prop :=
    forall ps, p_state ps = p_state ps0 -> ensures True (fun x => p_state (snd x) = p_state ps0 /\ P (fst x)) (m ps).

  Lemma keeps_ret {A} (a : A) (P : A -> Prop) : P a -> keeps (fun ps => Ok (a, ps)) P.
  Proof. intros H ps Hs. exact (conj Hs H). Qed.

  Lemma keeps_bind {A B} (m : pstate -> outcome (A * pstate)) (k : A * pstate -> outcome (B * pstate)) P Q :
    keeps m P -> (forall a, P a -> keeps (fun ps => k (a, ps)) Q) -> keeps (fun ps => obind (m ps) k) Q.
  Proof.
    intros Hm Hk ps Hs. apply (ensures_bind _ _ _ _ _ (Hm ps Hs)). intros [a ps1] [Hs1 Pa]. exact (Hk a Pa ps1 Hs1).
  Qed.

  (* bind on a proved computation H, naming its value and what H says of it; the continuation then mentions
     the pair of value and state only through fst and snd, which are reduced away *)
  Tactic Notation "kbind" constr(H) "as" simple_intropattern(a) simple_intropattern(S) :=
    apply keeps_bind with (1 := H); intros a S; cbn [fst snd].

  Lemma keeps_bind_eq {A B} m k (s : outcome A) (ks : A -> outcome B) :
    keeps m (fun a => s = Ok a) -> (forall a, keeps (fun ps => k (a, ps)) (fun b => ks a = Ok b)) ->
    keeps (fun ps => obind (m ps) k) (fun b => obind s ks = Ok b).
  Proof. intros Hm Hk. kbind Hm as a E. rewrite E. exact (Hk a). Qed.

  Lemma keeps_gate {B} (g : pstate -> outcome bool) (k : bool -> pstate -> outcome (B * pstate)) s Q :
    (forall ps b, p_state ps = p_state ps0 -> g ps = Ok b -> s = Ok b) ->
    (forall b, s = Ok b -> keeps (k b) Q) -> keeps (fun ps => obind (g ps) (fun b => k b ps)) Q.
  Proof.
    intros Hg Hk ps Hs. destruct (g ps) as [b| |] eqn:E; [|exact I ..]. exact (Hk b (Hg _ _ Hs E) ps Hs).
  Qed.

  Lemma item_gate_spec d ps b :
    p_state ps = p_state ps0 -> match_detection_item it ps d = Ok b -> applies_item it T ps0 d = Ok b.
  Proof.
    intros Hs H. rewrite <- (applies_item_by_state it T ps ps0 d Hs).
    apply (detitem_gate it T ps d b Hwd Hwf). exact H.
  Qed.

  Section Renaming.
  Hypothesis Hr : is_renaming (i_tr it) = true.
  Hypothesis Hn : no_fapplied (i_field it).

  Lemma name_gate_spec f ps b :
    p_state ps = p_state ps0 -> match_field_name it ps f = Ok b -> applies_field it T ps0 f = Ok b.
  Proof.
    intros Hs H. rewrite <- (applies_field_by_state it T ps ps0 f Hs).
    apply (field_gate it T ps f b Hwf); auto.
  Qed.

  Definition spec_names (f : str) : outcome (list str) :=
    obind (rename_of it T ps0 (Some f)) (fun m => Ok (match m with Some m => fmap_list m | None => [f] end)).

  Lemma names_spec f : keeps (fun ps => apply_name_tracked it ps f) (fun l => spec_names f = Ok l).
  Proof.
    unfold apply_name_tracked, spec_names, rename_of.
    destruct (apply_field_name (i_tr it) (Some f)) as [m|]; [|apply keeps_ret; reflexivity].
    apply keeps_gate with (1 := name_gate_spec (Some f)). intros b Sb. rewrite Sb.
    destruct b; [|apply keeps_ret; reflexivity].
    intros ps Hs. simpl. rewrite track_state. auto.
  Qed.

  Lemma sp_fields_cons f r l1 l2 :
    spec_names f = Ok l1 -> sp_fields it T ps0 r = Ok l2 -> sp_fields it T ps0 (f :: r) = Ok (l1 ++ l2).
  Proof.
    unfold sp_fields. simpl. fold (spec_names f). intros ->. simpl.
    destruct (omap _ r); try discriminate. intros E. injection E as <-. reflexivity.
  Qed.

  Lemma map_fields_spec l : keeps (fun ps => map_fields it ps l) (fun l' => sp_fields it T ps0 l = Ok l').
  Proof.
    induction l as [|f r IH]; [apply keeps_ret; reflexivity|].
    kbind (names_spec f) as l1 S1. kbind IH as l2 S2.
    apply keeps_ret, sp_fields_cons; assumption.
  Qed.

  Lemma sp_value_ref f l :
    applies_field it T ps0 (Some f) = Ok true -> spec_names f = Ok l ->
    sp_value it T ps0 (VRef f) = Ok (map VRef l, true).
  Proof.
    unfold sp_value, spec_names. intros -> H. simpl.
    destruct (rename_of it T ps0 (Some f)) as [[m|]| |]; try discriminate; injection H as <-; reflexivity.
  Qed.

  Definition refs_spec (vs : list sval) (x : list sval * bool) : Prop :=
    exists vs', omap (sp_value it T ps0) vs = Ok vs' /\ x = (concat (map fst vs'), existsb snd vs').

  Lemma refs_spec_cons v y r x :
    sp_value it T ps0 v = Ok y -> refs_spec r x -> refs_spec (v :: r) (fst y ++ fst x, snd y || snd x).
  Proof. intros Sv [vs' [S ->]]. exists (y :: vs'). simpl. rewrite Sv, S. auto. Qed.

  Lemma map_refs_spec vs : keeps (fun ps => map_refs it ps vs) (refs_spec vs).
  Proof.
    induction vs as [|v r IH]; [apply keeps_ret; exists []; auto|].
    destruct v as [s|z|b0| |f|s]; simpl.
    5:{ (* a field reference: match_field_in_value is match_field_name on Some f (field_in_value_gate) *)
        apply keeps_gate with (1 := name_gate_spec (Some f)). intros [|] Sa.
        - kbind (names_spec f) as l S1. kbind IH as x Sx.
          apply keeps_ret. exact (refs_spec_cons _ _ _ _ (sp_value_ref f l Sa S1) Sx).
        - kbind IH as x Sx.
          apply keeps_ret, (refs_spec_cons _ ([VRef f], false)); [simpl; rewrite Sa; reflexivity | exact Sx]. }
    all: kbind IH as x Sx; apply keeps_ret, (refs_spec_cons _ ([_], false)); [reflexivity | exact Sx].
  Qed.

  Lemma renaming_branch {A} (x : sval -> A) (y : A) : match i_tr it with TSetValue v => x v | _ => y end = y.
  Proof. destruct (i_tr it); try discriminate Hr; reflexivity. Qed.

  Lemma rename_item_spec d :
    applies_item it T ps0 d = Ok true ->
    keeps (fun ps => rename_item it ps d)
          (fun res => sp_leaf it T ps0 d = Ok (match res with Some t => t | None => DLeaf d end)).
  Proof.
    intros Sa. unfold rename_item, sp_leaf. rewrite Sa. simpl. rewrite renaming_branch.
    kbind (map_refs_spec (d_vals d)) as x [vs' [S ->]]. rewrite S. simpl.
    unfold rename_of. destruct (apply_field_name (i_tr it) (d_field d)) as [m|].
    - apply keeps_gate with (1 := name_gate_spec (d_field d)). intros b Sb. rewrite Sb.
      destruct b; [destruct m|]; apply keeps_ret; destruct (existsb snd vs'); reflexivity.
    - apply keeps_ret. destruct (existsb snd vs'); reflexivity.
  Qed.
  End Renaming.

  Hypothesis Hdom : is_renaming (i_tr it) = true -> no_fapplied (i_field it).
  Hypothesis Hitem : is_item_transf (i_tr it) = true.

  Lemma leaf_spec d : keeps (fun ps => apply_tree it ps (DLeaf d)) (fun t' => sp_leaf it T ps0 d = Ok t').
  Proof.
    simpl. apply keeps_gate with (1 := item_gate_spec d). intros [|] Sa.
    - destruct (is_renaming (i_tr it)) eqn:Er.
      + pose proof (rename_item_spec Er (Hdom eq_refl) d Sa) as R.
        unfold transform_item. destruct (i_tr it); try discriminate Er; kbind R as res S; apply keeps_ret; exact S.
      + unfold transform_item, sp_leaf. rewrite Sa. simpl.
        (* the renamings go by Er, the transformations of rule and state by Hitem: set-value is left *)
        destruct (i_tr it); try discriminate. destruct (d_vals d); simpl; apply keeps_ret; reflexivity.
    - apply keeps_ret. unfold sp_leaf. rewrite Sa. reflexivity.
  Qed.

  Lemma tree_spec t : keeps (fun ps => apply_tree it ps t) (fun t' => sp_tree it T ps0 t = Ok t').
  Proof.
    induction t as [d|l IH] using dtree_ind'; [exact (leaf_spec d)|].
    simpl. apply keeps_bind_eq; [|intros l'; cbn [fst snd]; apply keeps_ret; reflexivity].
    induction IH as [|x r Hx _ IHr]; [apply keeps_ret; reflexivity|].
    kbind Hx as x' Sx. kbind IHr as r' Sr. apply keeps_ret. rewrite Sx, Sr. reflexivity.
  Qed.

  Lemma dets_spec l :
    keeps (fun ps => apply_dets it ps l)
          (fun l' => omap (fun d => obind (sp_tree it T ps0 (snd d)) (fun t => Ok (fst d, t))) l = Ok l').
  Proof.
    induction l as [|[n t] r IH]; simpl; [apply keeps_ret; reflexivity|].
    kbind (tree_spec t) as t1 S1. kbind IH as r' S2.
    apply keeps_ret. rewrite S1, S2. reflexivity.
  Qed.

  Lemma fields_spec fs :
    keeps (fun ps => if is_renaming (i_tr it) then map_fields it ps fs else Ok (fs, ps))
          (fun fl => (if is_renaming (i_tr it) then sp_fields it T ps0 fs else Ok fs) = Ok fl).
  Proof.
    destruct (is_renaming (i_tr it)); [exact (map_fields_spec (Hdom eq_refl) fs) | apply keeps_ret; reflexivity].
  Qed.
End Step.

(* the match of sp_step on the transformation, with arbitrary branches so that rewriting finds it *)
Lemma item_branch {A} t (x : str -> stval -> A) (y : option str -> option str -> option str -> A)
      (z : str -> aval -> A) (d : A) :
  is_item_transf t = true ->
  match t with TSetState k v => x k v | TChangeLogsource c p s => y c p s | TSetAttr a v => z a v | _ => d end = d.
Proof. destruct t; try discriminate; reflexivity. Qed.

Lemma sp_step_rule it T w :
  is_item_transf (i_tr it) = false ->
  sp_step it T w =
  obind (applies_rule it w) (fun b =>
  if negb b then Ok (w, false, T) else obind (transform it w) (fun w' => Ok (w', true, T))).
Proof.
  unfold sp_step, transform. destruct (i_tr it) as [k v|[c|] [p|] [s|]|a v| | | |]; try discriminate; reflexivity.
Qed.

Theorem step_meets_spec it T w w' b :
  wf_ngroup (i_rule it) -> wf_ngroup (i_det it) -> wf_ngroup (i_field it) ->
  tracking_safe it = true ->
  step it w = Ok (w', b) ->
  exists ws T', sp_step it T w = Ok (ws, b, T') /\ same_obs ws w'.
Proof.
  intros Hwr Hwd Hwf Hts Hst.
  apply step_inv in Hst. destruct Hst as [Hg Ht].
  apply (rule_gate it w b Hwr) in Hg.
  destruct b; [|subst; exists w, T; unfold sp_step; rewrite Hg; split; [reflexivity | split; reflexivity]].
  destruct (is_item_transf (i_tr it)) eqn:Hi.
  - rewrite transform_items in Ht by exact Hi.
    apply obind_ok in Ht. destruct Ht as [[fl ps1] [Ef Ht]].
    apply obind_ok in Ht. destruct Ht as [[ds ps2] [Ed Ht]]. injection Ht as <-.
    destruct (ensures_ok _ _ _ _ (fields_spec it T (w_ps w) Hwf (dom_of_safe it Hts) _ _ eq_refl) Ef) as [Hs1 S1].
    destruct (ensures_ok _ _ _ _ (dets_spec it T (w_ps w) Hwd Hwf (dom_of_safe it Hts) Hi _ _ Hs1) Ed) as [Hs2 S2].
    unfold sp_step. rewrite Hg. simpl. rewrite item_branch by exact Hi. rewrite S1. simpl. rewrite S2.
    eexists _, _. split; [reflexivity | split; [reflexivity | symmetry; exact Hs2]].
  - rewrite sp_step_rule, Hg by exact Hi. simpl. rewrite Ht.
    exists w', T. split; [reflexivity | split; reflexivity].
Qed.
