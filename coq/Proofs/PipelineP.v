(* C14 - Model.Pipeline against Spec.AbsPipeline.  Every operation that builds a pipeline on the heap (+, bracketings,
   sum, the resolver, init_processing_pipeline) yields the value its specification computes and changes the value of no
   pipeline there was (`refines`); a pipeline that owns its objects runs like the value it denotes (`run_ref`).
   insert, isort and str_leb of Spec.AbsPipeline have the bodies of those of Model.Determinism, so the sorting and
   string-order lemmas of Proofs.DeterminismP apply to them by conversion (with `apply`, not `rewrite`). *)
From Coq Require Import NArith ZArith List Bool Lia Permutation Sorting.Sorted.
From PS Require Import Base.Chars Base.Outcome Spec.AbsPipeline Model.Pipeline Proofs.OutcomeP Proofs.CharsP Proofs.DeterminismP.
Import ListNotations.
Open Scope N_scope.

Definition dict_ok (d : dict) : Prop := NoDup (map fst d).

Lemma str_eqb_false a b : str_eqb a b = false -> a <> b.
Proof. intros H E. subst. rewrite str_eqb_refl in H. discriminate. Qed.

Lemma lookup_alookup k d : lookup k d = alookup k d.
Proof. induction d as [|[k0 v0] d IH]; simpl; [|rewrite IH]; reflexivity. Qed.

Lemma dset_aupd d k v : dset d k v = aupd v (fun _ => v) k d.
Proof. induction d as [|[k0 v0] d IH]; simpl; [|rewrite IH]; reflexivity. Qed.

Lemma dict_ok_dmerge a b : dict_ok a -> dict_ok (dmerge a b).
Proof.
  unfold dmerge. revert a. induction b as [|[k v] b IH]; simpl; intros a H; [exact H|].
  apply IH. unfold dict_ok. rewrite dset_aupd, keys_aupd. apply (add_new_NoDup _ str_eqb_eq), H.
Qed.

Lemma lookup_dmerge k a b : dict_ok b ->
  lookup k (dmerge a b) = match lookup k b with Some v => Some v | None => lookup k a end.
Proof.
  unfold dmerge. revert a. induction b as [|[k0 v0] b IH]; simpl; intros a H; [reflexivity|].
  inversion H; subst. rewrite IH, dset_aupd, !lookup_alookup, alookup_aupd by assumption.
  destruct (str_eqb_spec k k0) as [->|]; [rewrite alookup_None by assumption|]; reflexivity.
Qed.

Lemma dmerge_nil_r a : dmerge a [] = a.
Proof. reflexivity. Qed.

Section Stable.
  Context {A : Type} (leb : A -> A -> bool).
  Hypothesis leb_trans : forall a b c, leb a b = true -> leb b c = true -> leb a c = true.

  (* stability: elements that the order does not separate keep their argument order *)
  Definition eqv (z a : A) : bool := leb z a && leb a z.
  Lemma insert_stable z x l :
    filter (eqv z) (insert leb x l) = filter (eqv z) (x :: l).
  Proof.
    induction l as [|y l IH]; [reflexivity|].
    simpl insert. destruct (leb x y) eqn:E; [reflexivity|].
    cbn [filter]. rewrite IH. cbn [filter].
    destruct (eqv z x) eqn:Ex; destruct (eqv z y) eqn:Ey; try reflexivity. exfalso.
    unfold eqv in Ex, Ey. apply andb_true_iff in Ex, Ey. destruct Ex as [_ Exz], Ey as [Ezy _].
    rewrite (leb_trans _ _ _ Exz Ezy) in E. discriminate.
  Qed.
  Lemma isort_stable z l : filter (eqv z) (isort leb l) = filter (eqv z) l.
  Proof.
    induction l as [|x l IH]; [reflexivity|]. simpl isort. rewrite insert_stable. simpl. rewrite IH. reflexivity.
  Qed.
End Stable.

Lemma key_leb_spec a b :
  key_leb a b = true <-> (fst a < fst b)%Z \/ fst a = fst b /\ str_leb (snd a) (snd b) = true.
Proof.
  unfold key_leb. destruct (Z.ltb_spec (fst a) (fst b)), (Z.eqb_spec (fst a) (fst b)); intuition (discriminate || lia).
Qed.

Lemma key_leb_total a b : key_leb a b = true \/ key_leb b a = true.
Proof.
  destruct (Z.lt_trichotomy (fst a) (fst b)) as [?|[E|?]];
    [left | destruct (str_leb_total (snd a) (snd b)); [left | right] | right]; apply key_leb_spec; auto.
Qed.
Lemma key_leb_antisym a b : key_leb a b = true -> key_leb b a = true -> a = b.
Proof.
  destruct a as [p s], b as [q t].
  intros [?|[? ?]]%key_leb_spec [?|[? ?]]%key_leb_spec; simpl in *; try lia. subst. f_equal. apply str_leb_antisym; assumption.
Qed.
Lemma key_leb_trans a b c : key_leb a b = true -> key_leb b c = true -> key_leb a c = true.
Proof.
  intros [?|[E1 ?]]%key_leb_spec [?|[E2 ?]]%key_leb_spec; apply key_leb_spec; [left; lia.. | right].
  split; [congruence | eapply str_leb_trans; eassumption].
Qed.

Section ResolverP.
  Context {A : Type} (nm : A -> option str) (pr : A -> Z).
  Notation ileb := (info_leb pr).

  Lemma info_leb_trans (a b c : A * str) : ileb a b = true -> ileb b c = true -> ileb a c = true.
  Proof. apply key_leb_trans. Qed.
  Lemma info_sorted l : sortedP ileb (isort ileb l).
  Proof. apply isort_sorted; [intros a b; apply key_leb_total | exact info_leb_trans]. Qed.

  Lemma resolve_all_perm reg specs specs' : Permutation specs specs' ->
    match resolve_all nm reg specs, resolve_all nm reg specs' with
    | Some l, Some l' => Permutation l l'
    | None, None => True
    | _, _ => False
    end.
  Proof.
    induction 1 as [|x l l' HP IH|x y l|l l' l'' HP1 IH1 HP2 IH2]; simpl.
    - constructor.
    - destruct (reg_lookup nm reg x); destruct (resolve_all nm reg l), (resolve_all nm reg l'); try exact I; try contradiction.
      apply perm_skip. exact IH.
    - destruct (reg_lookup nm reg x), (reg_lookup nm reg y), (resolve_all nm reg l); try exact I. apply perm_swap.
    - destruct (resolve_all nm reg l), (resolve_all nm reg l'), (resolve_all nm reg l''); try exact I; try contradiction.
      eapply Permutation_trans; eassumption.
  Qed.

  Lemma resolve_all_spec reg specs : forall l, resolve_all nm reg specs = Some l ->
    map snd l = specs /\ forall x, In x l -> reg_lookup nm reg (snd x) = Some (fst x).
  Proof.
    induction specs as [|s specs IH]; simpl; intros l H; [injection H as <-; split; [reflexivity | intros x []]|].
    destruct (reg_lookup nm reg s) eqn:E; [|discriminate]. destruct (resolve_all nm reg specs); [|discriminate].
    injection H as <-. destruct (IH _ eq_refl) as [S L]. split; [simpl; f_equal; exact S|].
    intros x [<-|Hx]; [exact E | exact (L x Hx)].
  Qed.

  Lemma reg_lookup_in reg s x : reg_lookup nm reg s = Some x -> In x reg.
  Proof.
    induction reg as [|r reg IH]; cbn; intros H; [discriminate|].
    destruct (reg_lookup nm reg s) eqn:Er.
    - right. apply IH. congruence.
    - destruct (oname_eqb (nm r) s); [left; congruence | discriminate].
  Qed.
  Lemma resolve_all_in reg specs l : resolve_all nm reg specs = Some l -> forall x, In x l -> In (fst x) reg.
  Proof. intros E x Hx. exact (reg_lookup_in _ _ _ (proj2 (resolve_all_spec _ _ _ E) x Hx)). Qed.

  Lemma resolve_order_perm reg specs specs' :
    Permutation specs specs' -> resolve_order nm pr reg specs = resolve_order nm pr reg specs'.
  Proof.
    intros HP. unfold resolve_order. pose proof (resolve_all_perm reg _ _ HP) as H.
    destruct (resolve_all nm reg specs) as [l|] eqn:E1, (resolve_all nm reg specs') as [l'|] eqn:E2;
      try contradiction; [|reflexivity].
    (* both results are sorted permutations of each other, and two entries with the same key are the same entry,
       since a spec is looked up to one pipeline *)
    f_equal. f_equal. apply (sorted_unique ileb); try apply info_sorted.
    - apply (Permutation_trans (isort_perm_self ileb l)), (Permutation_trans H), Permutation_sym, isort_perm_self.
    - intros x y Hx Hy L1 L2.
      apply (Permutation_in _ (isort_perm_self ileb l)), (proj2 (resolve_all_spec _ _ _ E1)) in Hx, Hy.
      pose proof (f_equal snd (key_leb_antisym _ _ L1 L2)) as Es. destruct x, y. cbn in *. congruence.
  Qed.

  Lemma resolve_order_spec reg specs l : resolve_all nm reg specs = Some l ->
    exists s, resolve_order nm pr reg specs = Some (map fst s) /\
      Permutation s l /\ StronglySorted (fun a b => ileb a b = true) s /\
      forall z, filter (eqv ileb z) s = filter (eqv ileb z) l.
  Proof.
    intros E. exists (isort ileb l). unfold resolve_order. rewrite E. split; [reflexivity|]. split; [apply isort_perm_self|].
    split; [apply info_sorted|].
    intros z. apply isort_stable. apply info_leb_trans.
  Qed.
  Lemma resolve_order_in reg specs l : resolve_order nm pr reg specs = Some l -> forall x, In x l -> In x reg.
  Proof.
    unfold resolve_order. destruct (resolve_all nm reg specs) as [l0|] eqn:E; [|discriminate]. intros [= <-] x Hx.
    apply in_map_iff in Hx as (y & <- & Hy). apply (Permutation_in _ (isort_perm_self _ l0)) in Hy.
    exact (resolve_all_in _ _ _ E _ Hy).
  Qed.
End ResolverP.

Section ResolveMap.
  Context {A B : Type} (g : A -> B) (nm : A -> option str) (pr : A -> Z) (nm' : B -> option str) (pr' : B -> Z).
  Hypothesis nm_g : forall x, nm' (g x) = nm x.
  Hypothesis pr_g : forall x, pr' (g x) = pr x.
  Definition gx (x : A * str) : B * str := (g (fst x), snd x).

  Lemma reg_lookup_map reg s : reg_lookup nm' (map g reg) s = option_map g (reg_lookup nm reg s).
  Proof.
    induction reg as [|p reg IH]; cbn; [reflexivity|]. rewrite IH.
    destruct (reg_lookup nm reg s); cbn; [reflexivity|]. rewrite nm_g.
    destruct (oname_eqb (nm p) s); reflexivity.
  Qed.
  Lemma resolve_all_map reg specs :
    resolve_all nm' (map g reg) specs = option_map (map gx) (resolve_all nm reg specs).
  Proof.
    induction specs as [|s specs IH]; cbn; [reflexivity|]. rewrite reg_lookup_map, IH.
    destruct (reg_lookup nm reg s); cbn; [|reflexivity]. destruct (resolve_all nm reg specs); reflexivity.
  Qed.
  Lemma info_leb_map x y : info_leb pr' (gx x) (gx y) = info_leb pr x y.
  Proof. unfold info_leb, info_key, gx. cbn. rewrite !pr_g. reflexivity. Qed.
  Lemma insert_map x l : insert (info_leb pr') (gx x) (map gx l) = map gx (insert (info_leb pr) x l).
  Proof.
    induction l as [|y l IH]; cbn; [reflexivity|]. rewrite info_leb_map.
    destruct (info_leb pr x y); cbn; [reflexivity|]. rewrite IH. reflexivity.
  Qed.
  Lemma isort_map l : isort (info_leb pr') (map gx l) = map gx (isort (info_leb pr) l).
  Proof. induction l as [|x l IH]; cbn; [reflexivity|]. rewrite IH. apply insert_map. Qed.
  Lemma resolve_order_map reg specs :
    resolve_order nm' pr' (map g reg) specs = option_map (map g) (resolve_order nm pr reg specs).
  Proof.
    unfold resolve_order. rewrite resolve_all_map. destruct (resolve_all nm reg specs) as [l|]; cbn; [|reflexivity].
    rewrite isort_map, !map_map. reflexivity.
  Qed.
End ResolveMap.

(* the table entry a spec denotes, as a pipeline: the registered object itself, or (for a callable /
   file) a pipeline with the content of the definition.  Such a pipeline is on no heap: its p_id 0 stands for
   nothing, and `valid h (ent_ppl e)` says of it only that h is not empty; the lemmas that ask for it are about
   tables with objs_only, where the case does not arise. *)
Definition ent_ppl (e : str * rent ppl) : ppl :=
  match snd e with
  | RObj p => p
  | RCall d => {| p_id := 0; p_items := d_items d; p_post := d_post d; p_fin := d_fin d; p_prio := d_prio d; p_name := d_name d |}
  | RSeq ds => let d := seq_pick 0 ds in
               {| p_id := 0; p_items := d_items d; p_post := d_post d; p_fin := d_fin d; p_prio := d_prio d; p_name := d_name d |}
  end.
Definition is_obj (e : str * rent ppl) : Prop := exists p, snd e = RObj p.
Definition objs_only (t : list (str * rent ppl)) : Prop := forall e, In e t -> is_obj e.
Lemma ent_ppl_obj e p : snd e = RObj p -> ent_ppl e = p.
Proof. unfold ent_ppl. intros ->. reflexivity. Qed.
Lemma ent_ppl_prio e : p_prio (ent_ppl e) = ent_prio e.
Proof. unfold ent_ppl, ent_prio. destruct (snd e); reflexivity. Qed.

Lemma resolve_all_objs t specs l : objs_only t -> resolve_all tab_nm t specs = Some l ->
  Forall (fun x => is_obj (fst x)) l.
Proof. intros O E. apply Forall_forall. intros x Hx. exact (O _ (resolve_all_in _ _ _ _ E x Hx)). Qed.

Lemma minst_objs h c l : Forall (fun x => is_obj (fst x)) l -> minst_all h c l = ((h, c), Ok (map (gx ent_ppl) l)).
Proof.
  induction 1 as [|es l [p Hp] _ IH]; [reflexivity|]. cbn [minst_all map]. rewrite Hp, IH. cbn [fst snd obind].
  unfold gx at 2. rewrite (ent_ppl_obj _ _ Hp). reflexivity.
Qed.

Lemma resolve_objs h c t specs : objs_only t ->
  resolve h c t specs =
  match resolve_order tab_nm ent_prio t specs with
  | None => ((h, c), SigmaErr E_NotFound)
  | Some l => let hs := psum h (map ent_ppl l) in ((fst hs, c), snd hs)
  end.
Proof.
  intros O. unfold resolve, resolve_order. destruct (resolve_all tab_nm t specs) as [l|] eqn:E; [|reflexivity].
  rewrite minst_objs by exact (resolve_all_objs _ _ _ O E). cbn [fst snd].
  rewrite (isort_map ent_ppl ent_prio p_prio ent_ppl_prio), !map_map. reflexivity.
Qed.

Lemma resolve_perm h c t specs specs' : objs_only t ->
  Permutation specs specs' -> resolve h c t specs = resolve h c t specs'.
Proof.
  intros O HP. rewrite !resolve_objs by exact O. rewrite (resolve_order_perm tab_nm ent_prio t _ _ HP). reflexivity.
Qed.

Lemma memN_spec u l : reflect (In u l) (memN u l).
Proof.
  apply iff_reflect. symmetry. exact (mem_In u l).
Qed.
Lemma memN_in u l : In u l -> memN u l = true.
Proof. intros H. destruct (memN_spec u l); [reflexivity | contradiction]. Qed.
Lemma upd_same {A} (f : N -> A) k v : upd f k v k = v.
Proof. unfold upd. rewrite N.eqb_refl. reflexivity. Qed.
Lemma upd_other {A} (f : N -> A) k v x : x <> k -> upd f k v x = f x.
Proof. intros H. unfold upd. destruct (N.eqb_spec x k); [contradiction | reflexivity]. Qed.

Lemma clear_all_spec us : forall own u, clear_all own us u = if memN u us then None else own u.
Proof.
  unfold clear_all. induction us as [|x us IH]; intros own u; simpl; [reflexivity|].
  rewrite IH. unfold upd. destruct (N.eqb u x); simpl; [destruct (memN u us); reflexivity | reflexivity].
Qed.

Lemma own_all_first_dup pid us : forall own seen,
  (forall u, In u (map fst us) -> (own u <> None <-> In u seen)) ->
  snd (own_all own pid us) = first_dup seen us.
Proof.
  induction us as [|[u t] us IH]; intros own seen H; simpl; [reflexivity|].
  pose proof (H u (or_introl eq_refl)) as Hu.
  destruct (memN_spec u seen) as [Hin|Hn], (own u) eqn:E; try reflexivity.
  - apply Hu in Hin. congruence.
  - exfalso. apply Hn, Hu. congruence.
  - apply IH. intros u' Hu'. unfold upd. simpl. destruct (N.eqb_spec u' u) as [->|Nu].
    + split; [auto | discriminate].
    + rewrite (H u') by (right; exact Hu'). split; [auto | intros [?|?]; [congruence | assumption]].
Qed.

Lemma own_all_ok pid us : forall own own', own_all own pid us = (own', None) ->
  forall u, own' u = if memN u (map fst us) then Some pid else own u.
Proof.
  induction us as [|[u0 t] us IH]; intros own own' H u; simpl in *; [injection H as <-; reflexivity|].
  destruct (own u0) eqn:E; [discriminate|].
  rewrite (IH _ _ H u). unfold upd. destruct (N.eqb u u0); simpl; [destruct (memN u (map fst us))|]; reflexivity.
Qed.

Definition wf_heap (h : heap) : Prop := forall pid, dict_ok (h_vars h pid).
Definition valid (h : heap) (p : ppl) : Prop := p_id p < h_next h.
(* all that abs and valid read of h is there in h': its pipeline objects, with their variables.  Owner links and
   states are free: + rewrites the former, a conversion the latter. *)
Definition frame (h h' : heap) : Prop :=
  h_next h <= h_next h' /\ forall pid, pid < h_next h -> h_vars h' pid = h_vars h pid.

Lemma frame_refl h : frame h h.
Proof. split; [lia | reflexivity]. Qed.
Lemma frame_trans h1 h2 h3 : frame h1 h2 -> frame h2 h3 -> frame h1 h3.
Proof. intros (A1 & B1) (A2 & B2). split; [lia|]. intros pid Hp. rewrite B2 by lia. apply B1, Hp. Qed.
Lemma abs_frame h h' p : frame h h' -> valid h p -> abs h' p = abs h p.
Proof. intros [_ F] V. unfold abs. rewrite F by exact V. reflexivity. Qed.
Lemma valid_frame h h' p : frame h h' -> valid h p -> valid h' p.
Proof. unfold valid. intros [F _] V. lia. Qed.

Lemma mk_ok h its ps fs vars prio name h' s : mk h its ps fs vars prio name = (h', Ok s) ->
  (forall u, h_own h' u = if memN u (map fst (tagged its ps fs)) then Some (h_next h) else h_own h u) /\
  s = {| p_id := h_next h; p_items := its; p_post := ps; p_fin := fs; p_prio := prio; p_name := name |} /\
  h_vars h' = upd (h_vars h) (h_next h) vars /\ h_state h' = upd (h_state h) (h_next h) [] /\
  h_next h' = N.succ (h_next h).
Proof.
  unfold mk. destruct (own_all (h_own h) (h_next h) (tagged its ps fs)) as [own' e] eqn:E. simpl.
  destruct e; intros [= <- <-]. split; [exact (own_all_ok _ _ _ _ E) | repeat split].
Qed.

Lemma mk_abs_owned h its ps fs vars prio name h' s : mk h its ps fs vars prio name = (h', Ok s) ->
  s = {| p_id := h_next h; p_items := its; p_post := ps; p_fin := fs; p_prio := prio; p_name := name |} /\
  abs h' s = {| a_items := its; a_post := ps; a_fin := fs; a_vars := vars |} /\ valid h' s /\ owned h' s.
Proof.
  intros H. apply mk_ok in H as (Ho & -> & Hv & _ & Hn). split; [reflexivity|].
  split; [unfold abs; cbn; rewrite Hv, upd_same; reflexivity|]. split; [unfold valid; cbn; lia|].
  intros u Hu. cbn. rewrite Ho, (memN_in u (map fst (tagged its ps fs)) Hu). reflexivity.
Qed.

Lemma mk_defined h its ps fs vars prio name :
  (forall u, In u (map fst (tagged its ps fs)) -> h_own h u = None) ->
  snd (mk h its ps fs vars prio name) =
  match first_dup [] (tagged its ps fs) with
  | None => Ok {| p_id := h_next h; p_items := its; p_post := ps; p_fin := fs; p_prio := prio; p_name := name |}
  | Some t => SigmaErr t
  end.
Proof.
  intros H. unfold mk. simpl. rewrite (own_all_first_dup _ _ _ []); [reflexivity|].
  intros u Hu. rewrite (H u Hu). split; [congruence | intros []].
Qed.

Lemma mk_frame h its ps fs vars prio name : frame h (fst (mk h its ps fs vars prio name)).
Proof.
  split; cbn; [lia|]. intros pid Hp. apply upd_other. lia.
Qed.

Lemma in_tagged u its ps fs : In u (map fst (tagged its ps fs)) <->
  In u (map i_uid its) \/ In u (map q_uid ps) \/ In u (map f_uid fs).
Proof. unfold tagged. rewrite !map_app, !map_map, !in_app_iff. reflexivity. Qed.
Lemma tagged_app i1 i2 q1 q2 f1 f2 u :
  In u (map fst (tagged (i1 ++ i2) (q1 ++ q2) (f1 ++ f2))) ->
  In u (map fst (tagged i1 q1 f1)) \/ In u (map fst (tagged i2 q2 f2)).
Proof.
  intros [H|[H|H]]%in_tagged; rewrite map_app in H; apply in_app_or in H as [H|H];
    [left|right|left|right|left|right]; apply in_tagged; auto.
Qed.

Lemma add_defined h p q :
  snd (add h p q) =
  match first_dup [] (tagged (p_items p ++ p_items q) (p_post p ++ p_post q) (p_fin p ++ p_fin q)) with
  | None => Ok {| p_id := h_next h; p_items := p_items p ++ p_items q; p_post := p_post p ++ p_post q;
                  p_fin := p_fin p ++ p_fin q; p_prio := 0%Z; p_name := None |}
  | Some t => SigmaErr t
  end.
Proof.
  unfold add. rewrite mk_defined; [reflexivity|]. simpl. intros u Hu.
  rewrite !clear_all_spec. unfold uids, ptagged.
  destruct (tagged_app _ _ _ _ _ _ _ Hu) as [H|H]; rewrite (memN_in _ _ H); [destruct (memN u _)|]; reflexivity.
Qed.

Lemma add_abs_owned h p q h' s : add h p q = (h', Ok s) ->
  abs h' s = aplus (abs h p) (abs h q) /\ owned h' s.
Proof. unfold add. intros H. apply mk_abs_owned in H as (_ & A & _ & O). exact (conj A O). Qed.

(* an empty right operand is absorbed on the nose (dmerge a [] is a); with an empty left operand the variables of p
   are written one by one into an empty dict, which gives the dict of p back only when that repeats no key (of a
   repeated key lookup finds the first value, dset leaves the last) *)
Lemma add_empty_r h p e h' s : p_items e = [] -> p_post e = [] -> p_fin e = [] -> h_vars h (p_id e) = [] ->
  add h p e = (h', Ok s) -> abs h' s = abs h p.
Proof.
  intros A B C D H. apply add_abs_owned in H as [-> _]. unfold aplus, abs. cbn [a_items a_post a_fin a_vars].
  rewrite A, B, C, D, !app_nil_r. reflexivity.
Qed.
Lemma identity_all h p e h' s :
  p_items e = [] -> p_post e = [] -> p_fin e = [] -> h_vars h (p_id e) = [] -> dict_ok (h_vars h (p_id p)) ->
  (add h p e = (h', Ok s) -> abs h' s = abs h p) /\
  (add h e p = (h', Ok s) -> aeq (abs h' s) (abs h p)) /\
  add_opt h p None = (h, Ok p) /\ psum h [p] = (h, Ok p).
Proof.
  intros A B C D W. split; [apply add_empty_r; assumption|]. split; [|split; reflexivity].
  intros H. apply add_abs_owned in H as [-> _]. unfold aplus, abs. cbn [a_items a_post a_fin a_vars].
  rewrite A, B, C, D. repeat split. intros k. cbn [a_vars]. rewrite lookup_dmerge by exact W.
  destruct (lookup k _); reflexivity.
Qed.

Definition absr (h : heap) (r : outcome ppl) : outcome apipe := obind r (fun s => Ok (abs h s)).
Definition refines (h : heap) (x : heap * outcome ppl) (a : outcome apipe) : Prop :=
  frame h (fst x) /\ absr (fst x) (snd x) = a /\ forall s, snd x = Ok s -> valid (fst x) s.

Lemma refines_ok h h' s a : frame h h' -> abs h' s = a -> valid h' s -> refines h (h', Ok s) (Ok a).
Proof. intros F <- V. split; [exact F|]. split; [reflexivity|]. intros s' [= <-]. exact V. Qed.
Lemma refines_fail h h' r : frame h h' -> (forall s, r <> Ok s) -> refines h (h', r) (absr h' r).
Proof. intros F N. split; [exact F|]. split; [reflexivity|]. intros s E. destruct (N s E). Qed.
Lemma refines_bind h x a f g : refines h x a ->
  (forall h1 s, frame h h1 -> valid h1 s -> refines h1 (f h1 s) (g (abs h1 s))) ->
  refines h (hbind x f) (obind a g).
Proof.
  intros (F & <- & V) K. unfold hbind. destruct x as [h1 [s|t|t]]; cbn [fst snd absr obind] in *;
    try (apply refines_fail; [exact F | discriminate]).
  destruct (K h1 s F (V s eq_refl)) as (F' & E & V'). split; [exact (frame_trans _ _ _ F F') | split; assumption].
Qed.

Lemma hbind_ok {A B} (x : heap * outcome A) (f : heap -> A -> heap * outcome B) h' b :
  hbind x f = (h', Ok b) -> exists h1 a, x = (h1, Ok a) /\ f h1 a = (h', Ok b).
Proof. unfold hbind. destruct x as [h1 [a|t|t]]; cbn; try discriminate. eauto. Qed.

Lemma add_refines h p q : refines h (add h p q) (aplus_checked (abs h p) (abs h q)).
Proof.
  pose proof (mk_frame {| h_own := _; h_vars := h_vars h; h_state := h_state h; h_next := h_next h |} _ _ _ _ _ _
              : frame h (fst (add h p q))) as F.
  pose proof (add_defined h p q) as D. destruct (add h p q) as [h' r] eqn:E. cbn [fst snd] in *.
  unfold aplus_checked, atagged. cbn [aplus abs a_items a_post a_fin].
  destruct (first_dup [] _); subst r; [apply refines_fail; [exact F | discriminate]|].
  unfold add in E. apply mk_abs_owned in E as (_ & A & V & _). exact (refines_ok _ _ _ _ F A V).
Qed.

Fixpoint teval (v : ppl -> apipe) (e : tree) : outcome apipe :=
  match e with
  | Leaf p => Ok (v p)
  | Plus a b => obind (teval v a) (fun x => obind (teval v b) (fun y => aplus_checked x y))
  end.
Lemma teval_ext v v' e : Forall (fun p => v p = v' p) (leaves e) -> teval v e = teval v' e.
Proof.
  induction e as [p|a IHa b IHb]; cbn; intros H; [rewrite (Forall_inv H); reflexivity|].
  apply Forall_app in H as [Ha Hb]. rewrite IHa, IHb by assumption. reflexivity.
Qed.

Lemma eval_refines e : forall h, Forall (valid h) (leaves e) -> refines h (eval h e) (teval (abs h) e).
Proof.
  induction e as [p|a IHa b IHb]; intros h V; cbn [eval teval leaves] in *.
  - exact (refines_ok h h p _ (frame_refl h) eq_refl (Forall_inv V)).
  - apply Forall_app in V as [Va Vb]. apply refines_bind; [apply IHa, Va|]. intros h1 pa F1 Vpa.
    rewrite <- (teval_ext (abs h1) (abs h) b) by (eapply Forall_impl; [|exact Vb]; intros p; apply abs_frame, F1).
    apply refines_bind; [apply IHb; eapply Forall_impl; [|exact Vb]; intros p; apply valid_frame, F1|].
    intros h2 pb F2 _. rewrite <- (abs_frame h1 h2 pa F2 Vpa). apply add_refines.
Qed.

Lemma aplus_checked_ok p q a : aplus_checked p q = Ok a -> a = aplus p q.
Proof. unfold aplus_checked. destruct (first_dup _ _); [discriminate | congruence]. Qed.
Lemma vars_lookup_app k l1 l2 :
  vars_lookup k (l1 ++ l2) = match vars_lookup k l2 with Some v => Some v | None => vars_lookup k l1 end.
Proof.
  induction l1 as [|d l1 IH]; simpl; [|rewrite IH]; destruct (vars_lookup k l2); reflexivity.
Qed.

Lemma teval_flat v e : forall a, teval v e = Ok a ->
  a_items a = flat_map (fun p => a_items (v p)) (leaves e) /\
  a_post a = flat_map (fun p => a_post (v p)) (leaves e) /\
  a_fin a = flat_map (fun p => a_fin (v p)) (leaves e) /\
  ((forall p, In p (leaves e) -> dict_ok (a_vars (v p))) ->
   dict_ok (a_vars a) /\ forall k, lookup k (a_vars a) = vars_lookup k (map (fun p => a_vars (v p)) (leaves e))).
Proof.
  induction e as [p|x IHx y IHy]; cbn; intros a H.
  - injection H as <-. rewrite !app_nil_r. repeat split; auto.
  - destruct (teval v x) as [ax|?|?]; try discriminate. destruct (teval v y) as [ay|?|?]; try discriminate.
    cbn in H. apply aplus_checked_ok in H as ->.
    destruct (IHx _ eq_refl) as (Ix & Qx & Fx & Dx), (IHy _ eq_refl) as (Iy & Qy & Fy & Dy).
    cbn. rewrite !flat_map_app, Ix, Qx, Fx, Iy, Qy, Fy. do 3 (split; [reflexivity|]). intros D.
    destruct Dx as [Wx Lx]; [intros p Hp; apply D, in_or_app; auto|].
    destruct Dy as [Wy Ly]; [intros p Hp; apply D, in_or_app; auto|].
    split; [apply dict_ok_dmerge, Wx|]. intros k.
    rewrite lookup_dmerge, map_app, vars_lookup_app, Lx, Ly by exact Wy. reflexivity.
Qed.

Lemma eval_flat e : forall h h' s, wf_heap h -> (forall p, In p (leaves e) -> valid h p) ->
  eval h e = (h', Ok s) ->
  p_items s = flat_map p_items (leaves e) /\ p_post s = flat_map p_post (leaves e) /\
  p_fin s = flat_map p_fin (leaves e) /\
  (forall k, lookup k (h_vars h' (p_id s)) = vars_lookup k (map (fun p => h_vars h (p_id p)) (leaves e))) /\
  valid h' s /\ match e with Leaf _ => True | Plus _ _ => owned h' s end.
Proof.
  intros h h' s W V E. destruct (eval_refines e h (proj2 (Forall_forall _ _) V)) as (_ & A & Vs). rewrite E in A, Vs.
  symmetry in A. destruct (teval_flat _ _ _ A) as (I & Q & F & D). destruct D as [_ L]; [intros p _; apply W|].
  repeat split; try assumption; [apply Vs; reflexivity|].
  destruct e as [p|a b]; [exact Logic.I|]. cbn in E.
  apply hbind_ok in E as (h1 & pa & _ & E). apply hbind_ok in E as (h2 & pb & _ & E). apply (add_abs_owned _ _ _ _ _ E).
Qed.

Definition ltree (p : ppl) (l : list ppl) : tree := fold_left (fun t q => Plus t (Leaf q)) l (Leaf p).
Lemma leaves_ltree p l : leaves (ltree p l) = p :: l.
Proof.
  unfold ltree. change (p :: l) with (leaves (Leaf p) ++ l). generalize (Leaf p).
  induction l as [|q l IH]; intros t; cbn; [rewrite app_nil_r; reflexivity|]. rewrite IH. cbn. rewrite <- app_assoc. reflexivity.
Qed.
Lemma psum_eval h p l : psum h (p :: l) = eval h (ltree p l).
Proof.
  unfold psum, ltree. symmetry. apply (fold_rel (fun t acc => eval h t = acc)); [intros t acc q _ <-|]; reflexivity.
Qed.
Lemma asum_teval v p l : asum (map v (p :: l)) = teval v (ltree p l).
Proof.
  unfold asum, ltree. cbn [map]. change (Ok (v p)) with (teval v (Leaf p)). generalize (Leaf p).
  induction l as [|q l IH]; intros t; [reflexivity|]. cbn [fold_left map]. rewrite <- IH. reflexivity.
Qed.

Lemma psum_refines l h : Forall (valid h) l -> refines h (psum h l) (asum (map (abs h) l)).
Proof.
  intros V. destruct l as [|p l].
  - destruct (mk_abs_owned h [] [] [] [] 0%Z None _ _ eq_refl) as (_ & A & Vs & _).
    exact (refines_ok _ _ _ _ (mk_frame h [] [] [] [] 0%Z None) A Vs).
  - rewrite psum_eval, asum_teval. apply eval_refines. rewrite leaves_ltree. exact V.
Qed.

Lemma psum_flat h l h' s : wf_heap h -> Forall (valid h) l -> psum h l = (h', Ok s) ->
  p_items s = flat_map p_items l /\ p_post s = flat_map p_post l /\ p_fin s = flat_map p_fin l /\
  (forall k, lookup k (h_vars h' (p_id s)) = vars_lookup k (map (fun p => h_vars h (p_id p)) l)).
Proof.
  intros W V E. destruct l as [|p l].
  - injection E as <- <-. cbn. rewrite upd_same. repeat split.
  - rewrite psum_eval in E. apply (eval_flat _ _ _ _ W) in E as (A & B & C & D & _); rewrite leaves_ltree in *;
      [repeat split; assumption | apply Forall_forall, V].
Qed.

Definition emap {A B} (g : A -> B) (e : str * rent A) : str * rent B :=
  (fst e, match snd e with RObj p => RObj (g p) | RCall d => RCall d | RSeq ds => RSeq ds end).
Definition gval (h : heap) (p : ppl) : aval := (abs h p, p_prio p).

Lemma ainst_objs (g : ppl -> aval) c l : Forall (fun x => is_obj (fst x)) l ->
  ainst_all c (map (gx (emap g)) l) = (map (gx g) (map (gx ent_ppl) l), c).
Proof.
  induction 1 as [|[[k e] sp] l [p Hp] _ IH]; [reflexivity|]. cbn [map ainst_all]. cbn [fst snd] in Hp. subst e.
  change (gx (emap g) (k, RObj p, sp)) with ((k, RObj (g p)), sp). cbn [fst snd]. rewrite IH. reflexivity.
Qed.

Lemma aresolve_objs h c t specs : objs_only t ->
  aresolve c (map (emap (gval h)) t) specs =
  match resolve_order tab_nm ent_prio t specs with
  | None => (SigmaErr E_NotFound, c)
  | Some l => (asum (map (abs h) (map ent_ppl l)), c)
  end.
Proof.
  intros O. unfold aresolve, resolve_order. rewrite (resolve_all_map (emap (gval h)) tab_nm tab_nm) by reflexivity.
  destruct (resolve_all tab_nm t specs) as [l|] eqn:E; [|reflexivity]. cbn [option_map].
  rewrite ainst_objs by exact (resolve_all_objs _ _ _ O E). cbn [fst snd].
  rewrite (isort_map (gval h) p_prio (fun a : aval => snd a)) by reflexivity.
  rewrite (isort_map ent_ppl ent_prio p_prio ent_ppl_prio), !map_map. reflexivity.
Qed.

(* stated on the projections that the resolver clauses of mstep and astep use *)
Lemma resolve_refines h c t specs : objs_only t -> (forall e, In e t -> valid h (ent_ppl e)) ->
  let r := resolve h c t specs in let ar := aresolve c (map (emap (gval h)) t) specs in
  refines h (fst (fst r), snd r) (fst ar) /\ snd (fst r) = snd ar.
Proof.
  intros O V. cbn zeta. rewrite resolve_objs, aresolve_objs by exact O.
  destruct (resolve_order tab_nm ent_prio t specs) as [l|] eqn:Eo; cbn [fst snd]; (split; [|reflexivity]);
    [|apply refines_fail; [apply frame_refl | discriminate]].
  rewrite <- surjective_pairing. apply psum_refines, Forall_map, Forall_forall. intros x Hx.
  exact (V x (resolve_order_in _ _ _ _ _ Eo x Hx)).
Qed.

Lemma resolve_flat h c t specs l h' c' s : wf_heap h -> objs_only t -> (forall e, In e t -> valid h (ent_ppl e)) ->
  resolve_order tab_nm ent_prio t specs = Some l ->
  resolve h c t specs = ((h', c'), Ok s) ->
  p_items s = flat_map p_items (map ent_ppl l) /\ p_post s = flat_map p_post (map ent_ppl l) /\
  p_fin s = flat_map p_fin (map ent_ppl l) /\
  (forall k, lookup k (h_vars h' (p_id s)) = vars_lookup k (map (fun p => h_vars h (p_id p)) (map ent_ppl l))).
Proof.
  intros W O V E H. rewrite resolve_objs in H by exact O. rewrite E in H. cbn zeta in H.
  destruct (psum h (map ent_ppl l)) as [h1 r1] eqn:Ep. cbn [fst snd] in H. injection H as -> _ ->.
  apply (psum_flat _ _ _ _ W) in Ep; [exact Ep|]. apply Forall_map, Forall_forall. intros x Hx.
  exact (V x (resolve_order_in _ _ _ _ _ E x Hx)).
Qed.

Lemma init_none h f bk outf : refines h (init h f bk None outf) (ainit f (abs h bk) None (abs h outf)).
Proof.
  unfold init, ainit, hbind. cbn [add_opt fst snd obind]. destruct (add_refines h bk outf) as ([Fn Fv] & <- & V).
  destruct (add h bk outf) as [h2 [s2|x|x]] eqn:Ea; cbn [fst snd absr obind] in *;
    try (apply refines_fail; [split; assumption | discriminate]).
  apply refines_ok; [| | exact (V s2 eq_refl)].
  - (* the three backend variables are written into the sum just made, which is no object of h *)
    unfold add in Ea. apply mk_ok in Ea as (_ & -> & _). split; cbn; [exact Fn|]. intros pid Hp.
    rewrite upd_other by lia. apply Fv, Hp.
  - unfold abs, with_backend_vars. cbn [a_items a_post a_fin a_vars h_vars]. rewrite upd_same. reflexivity.
Qed.
Lemma init_refines h f bk user outf : valid h outf ->
  refines h (init h f bk user outf) (ainit f (abs h bk) (option_map (abs h) user) (abs h outf)).
Proof.
  intros Vo. destruct user as [u|]; [|apply init_none].
  apply refines_bind; [apply add_refines|]. intros h1 s1 F1 _. rewrite <- (abs_frame h h1 outf F1 Vo).
  apply (init_none h1 f s1 outf).
Qed.
Lemma init_owned h f bk user outf h' s : init h f bk user outf = (h', Ok s) -> owned h' s.
Proof.
  unfold init. intros E. apply hbind_ok in E as (h1 & s1 & _ & E). apply hbind_ok in E as (h2 & s2 & E2 & [= <- <-]).
  exact (proj2 (add_abs_owned _ _ _ _ _ E2)).
Qed.

Lemma ainit_ok f bk user outf a : ainit f bk user outf = Ok a ->
  a = with_backend_vars f (aplus (match user with Some u => aplus bk u | None => bk end) outf).
Proof.
  unfold ainit. destruct user as [u|]; cbn [obind];
    [destruct (aplus_checked bk u) eqn:E1; try discriminate; apply aplus_checked_ok in E1 as ->; cbn [obind]|];
    (destruct (aplus_checked _ outf) eqn:E2; try discriminate; apply aplus_checked_ok in E2 as ->);
    intros [= <-]; reflexivity.
Qed.

Definition same (h h' : heap) : Prop :=
  h_own h' = h_own h /\ h_vars h' = h_vars h /\ h_next h' = h_next h.
Lemma same_refl h : same h h.
Proof. repeat split. Qed.
Lemma same_frame h h' : same h h' -> frame h h'.
Proof. intros (_ & B & C). unfold frame. rewrite B, C. split; [lia | reflexivity]. Qed.

Lemma uid_item its ps fs i : In i its -> In (i_uid i) (map fst (tagged its ps fs)).
Proof. intros H. apply in_tagged. left. exact (in_map i_uid _ _ H). Qed.
Lemma uid_post its ps fs q : In q ps -> In (q_uid q) (map fst (tagged its ps fs)).
Proof. intros H. apply in_tagged. right. left. exact (in_map q_uid _ _ H). Qed.

Lemma m_cond_owned h u self rids c : h_own h u = Some self ->
  m_cond h u rids c = Ok (cond_holds (h_state h self) rids c).
Proof. intros Ho. destruct c; cbn; rewrite ?Ho; reflexivity. Qed.

Definition tst (self : N) (hm : heap * mstate) : tstate :=
  {| t_conj := m_conj (snd hm); t_state := h_state (fst hm) self; t_applied := m_applied (snd hm);
     t_ids := m_ids (snd hm); t_rids := m_rids (snd hm) |}.
Definition irel (self : N) (h0 : heap) (acc : outcome (heap * mstate)) (t : tstate) : Prop :=
  exists hm, acc = Ok hm /\ tst self hm = t /\ same h0 (fst hm).

Lemma item_step_ref self h0 acc t i : h_own h0 (i_uid i) = Some self ->
  irel self h0 acc t -> irel self h0 (m_item_step acc i) (a_item_step t i).
Proof.
  intros Ho ([h m] & -> & <- & S). cbn [fst] in S. rewrite <- (proj1 S) in Ho.
  unfold m_item_step, a_item_step. cbn [obind fst snd tst t_state t_rids].
  rewrite (m_cond_owned _ _ _ _ _ Ho). cbn [obind].
  destruct (cond_holds _ _ _); [destruct (i_kind i); rewrite ?Ho|]; eexists; (split; [reflexivity|]);
    (split; [|exact S]); unfold tst; cbn; rewrite ?upd_same; reflexivity.
Qed.

Lemma post_step_ref self h acc p : h_own h (q_uid p) = Some self ->
  m_post_step h acc p = a_post_step (h_state h self) (h_vars h self) acc p.
Proof.
  intros Ho. unfold m_post_step, a_post_step. destruct acc as [qi|t|t]; cbn [obind]; try reflexivity.
  rewrite (m_cond_owned _ _ _ _ _ Ho). cbn [obind]. destruct (cond_holds _ _ _); [|reflexivity].
  destruct (q_kind p); rewrite ?Ho; reflexivity.
Qed.
Lemma post_fold_ref self h ps acc : (forall p, In p ps -> h_own h (q_uid p) = Some self) ->
  fold_left (m_post_step h) ps acc = fold_left (a_post_step (h_state h self) (h_vars h self)) ps acc.
Proof.
  intros Ho. apply (fold_rel eq); [|reflexivity]. intros a b p Hp <-. apply (post_step_ref self), Ho, Hp.
Qed.
Lemma post_ref self h ps qs : forall ids rids, (forall p, In p ps -> h_own h (q_uid p) = Some self) ->
  m_post h ps qs ids rids = stage_post ps (h_state h self) (h_vars h self) qs ids rids.
Proof.
  induction qs as [|q qs IH]; intros ids rids Ho; [reflexivity|]. cbn [m_post stage_post]. unfold stage_post_one.
  rewrite (post_fold_ref self) by exact Ho.
  destruct (fold_left _ ps (Ok _)) as [qi|t|t]; cbn [obind]; try reflexivity.
  rewrite IH by exact Ho. reflexivity.
Qed.

Lemma apply_ref p h0 h r : owned h0 p -> same h0 h ->
  irel (p_id p) h0 (m_apply h p r) (stage_transform (p_items p) r).
Proof.
  intros Ho S. unfold m_apply, stage_transform. apply fold_rel.
  - intros acc t i Hi. apply item_step_ref, Ho, uid_item, Hi.
  - eexists. split; [reflexivity|]. split; [|exact S]. unfold tst, t_init. cbn. rewrite upd_same. reflexivity.
Qed.

Definition rrel (h0 : heap) : outcome (heap * racc) -> outcome racc -> Prop :=
  orel (fun ha a => a = snd ha /\ same h0 (fst ha)).

Lemma rule_ref f p h0 ma aa r : owned h0 p ->
  rrel h0 ma aa -> rrel h0 (m_rule f p ma r) (abs_rule f (abs h0 p) aa r).
Proof.
  intros Ho R. eapply orel_bind; [exact R|]. intros [h a] ? [-> S]. cbn [fst snd] in *.
  destruct (apply_ref p h0 h r Ho S) as ([h1 m1] & -> & T & So & Sv & Sn).
  cbn [obind fst snd] in *. unfold stage_convert. cbn [abs a_items a_post a_vars]. rewrite <- T.
  cbn [tst fst snd t_conj t_state t_applied t_ids t_rids].
  rewrite (post_ref (p_id p)) by (intros q Hq; rewrite So; apply Ho, uid_post, Hq). rewrite Sv.
  destruct (stage_post _ _ _ _ _ _); cbn; [|reflexivity..]. repeat split; assumption.
Qed.

Lemma run_ref h f p rules : owned h p ->
  snd (m_run h f p rules) = abs_run f (abs h p) rules /\ same h (fst (m_run h f p rules)).
Proof.
  intros Ho. unfold m_run, abs_run.
  pose proof (fold_rel (rrel h) (m_rule f p) (abs_rule f (abs h p)) rules (fun ma aa r _ => rule_ref f p h ma aa r Ho)
                (Ok (h, {| ra_qs := []; ra_obs := []; ra_ids := [] |})) (Ok {| ra_qs := []; ra_obs := []; ra_ids := [] |})
                (conj eq_refl (same_refl h))) as R.
  destruct (fold_left (m_rule f p) rules _) as [[h1 a]|t|t], (fold_left (abs_rule _ _) rules _) as [a'|t'|t'];
    try contradiction; cbn in *; try (subst; split; [reflexivity | apply same_refl]).
  destruct R as [-> S]. split; [rewrite (proj1 (proj2 S)); reflexivity | exact S].
Qed.

Lemma behaviour h f p rules : owned h p -> snd (m_run h f p rules) = abs_run f (abs h p) rules.
Proof. intros Ho. apply run_ref, Ho. Qed.

Lemma stage_order h f bk user outf h' s rules : valid h outf ->
  init h f bk user outf = (h', Ok s) ->
  snd (m_run h' f s rules) =
  abs_run f (with_backend_vars f (aplus (match user with Some u => aplus (abs h bk) (abs h u) | None => abs h bk end)
                                        (abs h outf))) rules.
Proof.
  intros V H. destruct (init_refines h f bk user outf V) as (_ & A & _). rewrite H in A. cbn [fst snd absr obind] in A.
  symmetry in A. apply ainit_ok in A. rewrite (behaviour _ _ _ _ (init_owned _ _ _ _ _ _ _ H)), A.
  destruct user; reflexivity.
Qed.

Lemma eval_assoc e1 e2 h h1 s1 h2 s2 : wf_heap h -> (forall p, In p (leaves e1) -> valid h p) ->
  leaves e2 = leaves e1 -> eval h e1 = (h1, Ok s1) -> eval h e2 = (h2, Ok s2) -> aeq (abs h1 s1) (abs h2 s2).
Proof.
  intros W V L E1 E2.
  apply eval_flat in E1 as (A1 & B1 & C1 & D1 & _); [|exact W|exact V].
  apply eval_flat in E2 as (A2 & B2 & C2 & D2 & _); [|exact W|rewrite L; exact V].
  rewrite L in *. unfold aeq, abs. cbn [a_items a_post a_fin a_vars].
  split; [congruence|]. split; [congruence|]. split; [congruence|]. intros k. rewrite D1, D2. reflexivity.
Qed.
Lemma assoc3 h p q r h1 s1 h2 s2 : wf_heap h -> valid h p -> valid h q -> valid h r ->
  eval h (Plus (Plus (Leaf p) (Leaf q)) (Leaf r)) = (h1, Ok s1) ->
  eval h (Plus (Leaf p) (Plus (Leaf q) (Leaf r))) = (h2, Ok s2) ->
  aeq (abs h1 s1) (abs h2 s2).
Proof.
  intros W Vp Vq Vr. apply eval_assoc; [exact W | | reflexivity]. intros x [<-|[<-|[<-|[]]]]; assumption.
Qed.

(* the history clause is false (D18): after s = p + q, a further sum p + r takes p's item away from s *)
Definition w_item : pitem := {| i_uid := 1; i_id := [105]; i_kind := KSetState s_index [119;105;110]; i_cond := CNone |}.
Definition w_h0 : heap := fst (mk_defs h_empty [ {| d_items := [w_item]; d_post := []; d_fin := []; d_vars := []; d_prio := 0%Z; d_name := None |};
                                                 {| d_items := []; d_post := []; d_fin := []; d_vars := []; d_prio := 0%Z; d_name := None |};
                                                 {| d_items := []; d_post := []; d_fin := []; d_vars := []; d_prio := 0%Z; d_name := None |} ]).
Definition w_p : ppl := {| p_id := 0; p_items := [w_item]; p_post := []; p_fin := []; p_prio := 0%Z; p_name := None |}.
Definition w_q : ppl := {| p_id := 1; p_items := []; p_post := []; p_fin := []; p_prio := 0%Z; p_name := None |}.
Definition w_r : ppl := {| p_id := 2; p_items := []; p_post := []; p_fin := []; p_prio := 0%Z; p_name := None |}.
Definition w_s : ppl := {| p_id := 3; p_items := [w_item]; p_post := []; p_fin := []; p_prio := 0%Z; p_name := None |}.
Definition w_rules : list rule := [ {| r_field := [102]; r_value := [118]; r_two := false |} ].

Lemma w_p_owned : owned w_h0 w_p.
Proof. intros u [<-|[]]. reflexivity. Qed.

Lemma reuse_refuted :
  exists h p q r s t rules,
    owned h p /\ owned h q /\ owned h r /\
    snd (add h p q) = Ok s /\ snd (add (fst (add h p q)) p r) = Ok t /\
    (* right after the addition the sum behaves like the concatenation ... *)
    snd (m_run (fst (add h p q)) FState s rules) = abs_run FState (abs (fst (add h p q)) s) rules /\
    (* ... but no longer once an operand took part in another addition *)
    snd (m_run (fst (add (fst (add h p q)) p r)) FState s rules)
      <> abs_run FState (abs (fst (add (fst (add h p q)) p r)) s) rules.
Proof.
  exists w_h0, w_p, w_q, w_r, w_s,
         {| p_id := 4; p_items := [w_item]; p_post := []; p_fin := []; p_prio := 0%Z; p_name := None |}, w_rules.
  split; [exact w_p_owned|]. split; [intros u []|]. split; [intros u []|]. do 3 (split; [reflexivity|]).
  vm_compute. discriminate.
Qed.

Lemma premises_inhabited :
  wf_heap w_h0 /\ valid w_h0 w_p /\ valid w_h0 w_q /\ owned w_h0 w_p /\
  snd (add w_h0 w_p w_q) = Ok w_s /\ owned (fst (add w_h0 w_p w_q)) w_s.
Proof.
  split.
  { intros pid. unfold dict_ok. cbn. unfold upd.
    destruct (pid =? 2); [constructor|]. destruct (pid =? 1); [constructor|]. destruct (pid =? 0); constructor. }
  split; [reflexivity|]. split; [reflexivity|]. split; [exact w_p_owned|]. split; [reflexivity|].
  intros u [<-|[]]. reflexivity.
Qed.

Definition strip_item (i : pitem) := (i_id i, i_kind i, i_cond i).
Definition strip_post (q : ppost) := (q_id q, q_kind q, q_cond q).
Definition strip_fin (x : pfin) := (f_sep x, f_pre x, f_suf x).
(* p is a pipeline with the content of definition d (object identities apart) *)
Definition same_content (p : ppl) (d : pdef) : Prop :=
  map strip_item (p_items p) = map strip_item (d_items d) /\
  map strip_post (p_post p) = map strip_post (d_post d) /\
  map strip_fin (p_fin p) = map strip_fin (d_fin d) /\ p_prio p = d_prio d /\ p_name p = d_name d.
Definition inst_of (e : str * rent ppl) (p : ppl) : Prop :=
  match snd e with
  | RObj q => p = q
  | RCall d => same_content p d
  | RSeq ds => exists c, same_content p (seq_pick c ds)
  end.
Definition no_seq (t : list (str * rent ppl)) : Prop := forall e ds, In e t -> snd e <> RSeq ds.

Lemma strip_renum_items l : forall u, map strip_item (renum_items u l) = map strip_item l.
Proof. induction l as [|i l IH]; intros u; cbn; [reflexivity|]. rewrite IH. reflexivity. Qed.
Lemma strip_renum_post l : forall u, map strip_post (renum_post u l) = map strip_post l.
Proof. induction l as [|i l IH]; intros u; cbn; [reflexivity|]. rewrite IH. reflexivity. Qed.
Lemma strip_renum_fin l : forall u, map strip_fin (renum_fin u l) = map strip_fin l.
Proof. induction l as [|i l IH]; intros u; cbn; [reflexivity|]. rewrite IH. reflexivity. Qed.

Lemma mk_def_content h c d h' p : mk_def h (renum c d) = (h', Ok p) -> same_content p d.
Proof.
  unfold mk_def. intros E. apply mk_ok in E as (_ & -> & _).
  unfold same_content, renum. cbn [p_items p_post p_fin p_prio p_name d_items d_post d_fin d_prio d_name].
  rewrite strip_renum_items, strip_renum_post, strip_renum_fin. repeat split.
Qed.

Definition info_rel (es : (str * rent ppl) * str) (ps : ppl * str) : Prop :=
  inst_of (fst es) (fst ps) /\ info_key p_prio ps = info_key ent_prio es.

Lemma minst_rel l : Forall (fun x => forall ds, snd (fst x) <> RSeq ds) l ->
  forall h c hc infos, minst_all h c l = (hc, Ok infos) -> Forall2 info_rel l infos.
Proof.
  induction 1 as [|es l NS _ IH]; intros h c hc infos E; cbn [minst_all] in E; [injection E as _ <-; constructor|].
  destruct (snd (fst es)) as [q|d|ds] eqn:Ee; [| |destruct (NS ds eq_refl)].
  - destruct (minst_all h c l) as [hc1 [x|?|?]] eqn:E1; try discriminate.
    injection E as _ <-. constructor; [|exact (IH _ _ _ _ E1)].
    unfold info_rel, inst_of, info_key, ent_prio. rewrite Ee. split; reflexivity.
  - destruct (mk_def h (renum c d)) as [h1 [p|?|?]] eqn:Em; try discriminate. cbn [fst snd] in E.
    destruct (minst_all h1 (N.succ c) l) as [hc1 [x|?|?]] eqn:E1; try discriminate.
    injection E as _ <-. constructor; [|exact (IH _ _ _ _ E1)].
    pose proof (mk_def_content _ _ _ _ _ Em) as SC. unfold info_rel, inst_of, info_key, ent_prio. rewrite Ee.
    split; [exact SC | cbn; f_equal; apply SC].
Qed.

Section SortRel.
  Context {A B : Type} (R : A -> B -> Prop) (leA : A -> A -> bool) (leB : B -> B -> bool).
  Hypothesis le_rel : forall a b a' b', R a b -> R a' b' -> leA a a' = leB b b'.
  Lemma insert_F2 a b l1 l2 : R a b -> Forall2 R l1 l2 -> Forall2 R (insert leA a l1) (insert leB b l2).
  Proof.
    intros Hab F. induction F as [|x y l1 l2 Hxy F IH]; cbn; [repeat constructor; exact Hab|].
    rewrite (le_rel _ _ _ _ Hab Hxy). destruct (leB b y); repeat constructor; assumption.
  Qed.
  Lemma isort_F2 l1 l2 : Forall2 R l1 l2 -> Forall2 R (isort leA l1) (isort leB l2).
  Proof. induction 1; cbn; [constructor | apply insert_F2; assumption]. Qed.
End SortRel.

Lemma F2_map_fst {A B C D} (R : A * C -> B * D -> Prop) (Q : A -> B -> Prop) l1 l2 :
  (forall x y, R x y -> Q (fst x) (fst y)) -> Forall2 R l1 l2 -> Forall2 Q (map fst l1) (map fst l2).
Proof. intros H F. induction F; cbn; constructor; auto. Qed.

(* the two sorts run in step because an instance has the sort key of its entry (info_rel).  Not so for a callable
   with a memory (RSeq): its entry is sorted under the priority of its first definition, its instance under that of
   the definition it yields this time; hence no_seq. *)
Lemma resolve_instances h c t specs l hc infos : no_seq t ->
  resolve_all tab_nm t specs = Some l -> minst_all h c l = (hc, Ok infos) ->
  Forall2 inst_of (map fst (isort (info_leb ent_prio) l)) (map fst (isort (info_leb p_prio) infos)).
Proof.
  intros NS El Ei.
  assert (F : Forall2 info_rel l infos).
  { eapply minst_rel; [|exact Ei]. apply Forall_forall. intros x Hx ds. exact (NS _ ds (resolve_all_in _ _ _ _ El x Hx)). }
  apply (F2_map_fst info_rel inst_of); [intros x y Hxy; apply Hxy|].
  apply isort_F2; [|exact F].
  intros a b a' b' [_ K1] [_ K2]. unfold info_leb. rewrite K1, K2. reflexivity.
Qed.
