(* Lemmas about Model/Placeholder.v against Spec/Expand.v (property C17).
   rp_cases says what replace_placeholders does, for any callback: it fails with the callback's failure, or
   returns the substitution over the product of the callback's offers.  Which names the results keep, and
   that their items are the specification's step, are then facts about `subst` over `cartesian`
   (subst_placeholders, subst_isubst). *)
From Coq Require Import NArith List Bool.
From PS Require Import Base.Chars Base.Outcome Model.SString Model.Placeholder
                       Spec.Items Spec.Expand Proofs.OutcomeP Proofs.SStringP Proofs.ConvertP Proofs.CharsP.
Import ListNotations.
Open Scope N_scope.

Lemma map_cart_cons {A B} (g : list A -> B) (R : list A) (cart : list (list A)) :
  map g (flat_map (fun x => map (cons x) cart) R) =
  flat_map (fun x => map (fun ch => g (x :: ch)) cart) R.
Proof. rewrite map_flat_map. apply flat_map_ext. intros x. apply map_map. Qed.

Lemma existsb_filter {A} (p : A -> bool) l : existsb p l = false ->
  filter p l = [] /\ filter (fun x => negb (p x)) l = l.
Proof.
  induction l as [|x l IH]; [split; reflexivity|]. cbn. destruct (p x); [discriminate|].
  intros H. destruct (IH H) as [E1 E2]. rewrite E1, E2. split; reflexivity.
Qed.

Lemma placeholders_app a b : placeholders (a ++ b) = placeholders a ++ placeholders b.
Proof. apply flat_map_app. Qed.

(* Spec/Expand.v names the function again so as not to import the model; the two are convertible *)
Lemma ph_names_eq v : ph_names v = placeholders v.
Proof. reflexivity. Qed.

Lemma ph_of_items v : ph_of (items v) = placeholders v.
Proof.
  induction v as [|p v IH]; [reflexivity|].
  rewrite items_cons. unfold ph_of in *. rewrite flat_map_app, IH.
  destruct p; try reflexivity. cbn. induction s as [|c s IHs]; [reflexivity | exact IHs].
Qed.

Lemma no_ph_items v : placeholders v = [] -> forall n, ~ In (Ph n) (items v).
Proof.
  intros H n Hin. rewrite <- ph_of_items in H.
  assert (X : In n (ph_of (items v))).
  { apply in_flat_map. exists (Ph n). split; [exact Hin | left; reflexivity]. }
  rewrite H in X. destruct X.
Qed.

Lemma rx_valid_items v : s_rx_valid (items v) = compile_ok v.
Proof. unfold s_rx_valid, compile_ok. rewrite to_plain_items. reflexivity. Qed.

Lemma merge_app_l a b : merge (merge a ++ b) = merge (a ++ b).
Proof.
  induction a as [|p a IH]; [reflexivity|].
  destruct p; cbn [app merge]; try (rewrite IH; reflexivity).
  rewrite <- IH.
  destruct (merge a) as [|q r]; [reflexivity|].
  destruct q; try reflexivity.
  cbn [app merge].
  destruct (merge (r ++ b)) as [|q' r']; [reflexivity|].
  destruct q'; try reflexivity.
  rewrite app_assoc. reflexivity.
Qed.

Lemma merge_idem v : merge (merge v) = merge v.
Proof. generalize (merge_app_l v []). rewrite !app_nil_r. trivial. Qed.

Lemma merge_app_r a b : merge (a ++ merge b) = merge (a ++ b).
Proof.
  induction a as [|p a IH]; [apply merge_idem|].
  destruct p; cbn [app merge]; rewrite IH; reflexivity.
Qed.

Lemma merge_app a b : merge (merge a ++ merge b) = merge (a ++ b).
Proof. rewrite merge_app_l, merge_app_r. reflexivity. Qed.

Lemma items_merge v : items (merge v) = items v.
Proof. exact (items_merge_plain v). Qed.

Lemma placeholders_merge v : placeholders (merge v) = placeholders v.
Proof. rewrite <- !ph_of_items, items_merge. reflexivity. Qed.

Lemma subst_noph v ch : placeholders v = [] -> subst v ch = v.
Proof.
  induction v as [|p v IH]; intros H; [reflexivity|].
  destruct p; try discriminate; cbn [subst]; rewrite IH; auto.
Qed.

Definition ph_reps (cb : str -> outcome (list sstring)) (n : str) : list sstring :=
  match cb n with Ok l => l | _ => [] end.

Lemma ph_reps_ok cb n l : cb n = Ok l -> ph_reps cb n = l.
Proof. unfold ph_reps. intros ->. reflexivity. Qed.

(* the addition of `cross` merges; a value without placeholders is returned as it stands *)
Definition rp_join (v x : sstring) : sstring :=
  match placeholders v with [] => x | _ => merge x end.

Lemma merge_rp_join a v x : merge (a ++ rp_join v x) = merge (a ++ x).
Proof. unfold rp_join. destruct (placeholders v); [reflexivity | apply merge_app_r]. Qed.

Lemma items_rp_join v x : items (rp_join v x) = items x.
Proof. unfold rp_join. destruct (placeholders v); [reflexivity | apply items_merge]. Qed.

Lemma placeholders_rp_join v x : placeholders (rp_join v x) = placeholders x.
Proof. rewrite <- !ph_of_items, items_rp_join. reflexivity. Qed.

Lemma rp_join_merged pre v ch : merge (pre ++ v) = pre ++ v ->
  rp_join v (pre ++ subst v ch) = merge (pre ++ subst v ch).
Proof.
  intros Hm. unfold rp_join. destruct (placeholders v) eqn:E; [|reflexivity].
  rewrite (subst_noph v ch E). symmetry. exact Hm.
Qed.

(* Behind an empty offer the rest is not looked at, so a success does not say that the callback succeeds on
   every placeholder: but then the product is empty whatever a failing callback is taken to offer, and
   ph_reps takes it to offer nothing.  Where no offer is empty, a success does say so. *)
Theorem rp_cases cb v : forall pre,
  match rp cb pre v with
  | Ok l => l = map (fun ch => rp_join v (pre ++ subst v ch)) (cartesian (map (ph_reps cb) (placeholders v))) /\
            ((forall n, cb n <> Ok []) -> forall n, In n (placeholders v) -> cb n = Ok (ph_reps cb n))
  | e => exists n, In n (placeholders v) /\ cb n = e
  end.
Proof.
  induction v as [|p v IH]; intros pre.
  - cbn. rewrite app_nil_r. split; [reflexivity | intros _ n []].
  - pose proof (IH (pre ++ [p])) as IHp. destruct p; cbn [rp].
    1-3: destruct (rp cb (pre ++ [_]) v); [|exact IHp..];
         destruct IHp as [-> F]; split; [|exact F]; apply map_ext; intros ch;
         rewrite <- app_assoc; reflexivity.
    clear IHp. change (placeholders (PPh name :: v)) with (name :: placeholders v). cbn [map cartesian].
    destruct (cb name) as [[|r R]| |] eqn:Ec; cbn [obind];
      [| | exists name; split; [left; reflexivity | exact Ec]..].
    + rewrite (ph_reps_ok _ _ _ Ec). split; [reflexivity|]. intros N. destruct (N name Ec).
    + specialize (IH []). rewrite (ph_reps_ok _ _ _ Ec).
      destruct (rp cb [] v) as [sufs| |]; cbn [obind];
        [|destruct IH as (n & Hi & He); exists n; split; [right; exact Hi | exact He]..].
      destruct IH as [-> F]. split.
      * unfold cross. rewrite map_cart_cons. apply flat_map_ext. intros x.
        rewrite map_map. apply map_ext. intros ch.
        unfold sadd. rewrite merge_app_l, merge_rp_join, <- app_assoc. reflexivity.
      * intros N n [<- | Hi]; [rewrite (ph_reps_ok _ _ _ Ec); exact Ec | exact (F N n Hi)].
Qed.

Lemma rp_results_merged cb v : forall pre l, rp cb pre v = Ok l -> merge (pre ++ v) = pre ++ v -> map merge l = l.
Proof.
  intros pre l E Hm. generalize (rp_cases cb v pre). rewrite E. intros [-> _].
  rewrite map_map. apply map_ext. intros ch. rewrite (rp_join_merged pre v ch Hm). apply merge_idem.
Qed.

Corollary replace_placeholders_cases cb v :
  match replace_placeholders cb v with
  | Ok l => l = map (fun ch => rp_join v (subst v ch)) (cartesian (map (ph_reps cb) (placeholders v))) /\
            ((forall n, cb n <> Ok []) -> forall n, In n (placeholders v) -> cb n = Ok (ph_reps cb n))
  | e => exists n, In n (placeholders v) /\ cb n = e
  end.
Proof. exact (rp_cases cb v []). Qed.

Theorem cross_product cb (f : str -> list sstring) v :
  merge v = v ->
  (forall n, In n (placeholders v) -> cb n = Ok (f n)) ->
  replace_placeholders cb v =
    Ok (map (fun ch => merge (subst v ch)) (cartesian (map f (placeholders v)))).
Proof.
  intros Hm H. generalize (replace_placeholders_cases cb v).
  destruct (replace_placeholders cb v) as [l| |];
    [|intros (n & Hi & He); rewrite (H n Hi) in He; discriminate..].
  intros [-> _]. f_equal.
  rewrite (map_ext_in (ph_reps cb) f _ (fun n Hi => ph_reps_ok _ _ _ (H n Hi))).
  apply map_ext. intros ch. exact (rp_join_merged [] v ch Hm).
Qed.

Theorem replace_error cb v : (forall l, replace_placeholders cb v <> Ok l) ->
  exists n, In n (placeholders v) /\ cb n = replace_placeholders cb v.
Proof.
  intros H. generalize (replace_placeholders_cases cb v).
  destruct (replace_placeholders cb v); [destruct (H _ eq_refl) | trivial..].
Qed.

Lemma subst_placeholders (f : str -> list sstring) (h : str -> bool) v :
  (forall n, Forall (fun r => placeholders r = if h n then [] else [n]) (f n)) ->
  Forall (fun ch => placeholders (subst v ch) = filter (fun n => negb (h n)) (placeholders v))
         (cartesian (map f (placeholders v))).
Proof.
  intros Hf. induction v as [|p v IH]; [repeat constructor|].
  destruct p; try exact IH.
  change (placeholders (PPh name :: v)) with (name :: placeholders v). cbn [map cartesian filter].
  apply Forall_flat_map. eapply Forall_impl; [|exact (Hf name)]. intros r Hr.
  apply Forall_map. eapply Forall_impl; [|exact IH]. intros ch Hch.
  cbn [subst]. rewrite placeholders_app, Hr, Hch. destruct (h name); reflexivity.
Qed.

Lemma placeholders_none v : contains_placeholder v = false -> placeholders v = [].
Proof. induction v as [|[] v IH]; [reflexivity | exact IH.. | discriminate]. Qed.

Lemma placeholders_parse esc s : placeholders (parse esc s) = [].
Proof. apply placeholders_none, parse_placeholder_free. Qed.

(* the specification's view of a model case (plain re-tagging of the input) *)
Definition to_smod (m : vmod) : smod :=
  match m with MExpand => SExpand | MContains => SContains | MStartswith => SStartswith | MEndswith => SEndswith end.
Definition to_sitem (t : titem) : sitem :=
  {| s_kind := match t_kind t with
               | KValueList => SValueList | KWildcard => SWildcard | KQuery e m => SQuery e m end;
     s_inc := t_inc t; s_exc := t_exc t |}.
(* a variable has a usable table when it exists, is a scalar or a list, and every element is a
   string or a number (an empty list is an empty table) *)
Definition tabs_of (vs : vars) (n : str) : stab :=
  match assoc n vs with
  | None => SNoTable
  | Some tab =>
    let l := match tab with TScalar x => [x] | TList l => l end in
    if forallb (fun x => match x with VText _ => true | VBad => false end) l
    then STable (flat_map (fun x => match x with VText t => [t] | VBad => [] end) l)
    else SNoTable
  end.
Definition expected (c : case) : list (option (list sval)) :=
  map (fun s => s_expected1 (tabs_of (c_vars c)) (if c_field c then Some fname else None)
                            (map to_sitem (c_items c))
                            (s_source (c_re c) (map to_smod (c_mods c)) s))
      (c_values c).
Definition lhs_of (c : case) : str := if c_field c then fname else kwname.

Definition rep_items (rx : bool) : list item := if rx then [Lit c_dot; Multi] else [Multi].

Definition vparts (x : value) : sstring := match x with VS v | VR v => v | VQ _ _ => [] end.
(* the image of a query expression is arbitrary (the specification's XQ carries the filled template): a
   value-list or wildcard step hands any XQ on as it is, and [good] excludes query expressions *)
Definition sv (x : value) : sval :=
  match x with VS v => XS (items v) | VR v => XR (items v) | VQ e i => XQ (e ++ i) end.
Definition has_parts (x : value) : Prop := match x with VQ _ _ => False | _ => True end.
Definition good (x : value) : Prop :=
  has_parts x /\ match x with VR v => compile_ok v = true | _ => True end.

Definition base_kind (t : titem) : Prop := t_kind t = KValueList \/ t_kind t = KWildcard.

Lemma base_kind_elim {A} t (a : A) f : base_kind t ->
  match t_kind t with KQuery e m => f e m | _ => a end = a.
Proof. intros [-> | ->]; reflexivity. Qed.

Lemma to_sitem_kind {A} t (a : A) f : base_kind t ->
  match s_kind (to_sitem t) with SQuery e m => f e m | _ => a end = a.
Proof. unfold to_sitem. cbn [s_kind]. intros [-> | ->]; reflexivity. Qed.

(* `handled` joins the tests of the two lists by `||`, contains_ph by `&&`: they agree because
   check_exclusivity admits one list at most *)
Lemma handled_cond t n : item_ok t = true ->
  handled t n = (match t_inc t with None => true | Some l => mem_str n l end
                 && match t_exc t with None => true | Some l => negb (mem_str n l) end).
Proof.
  unfold item_ok, handled. destruct (t_inc t), (t_exc t); intros H; try discriminate;
    rewrite ?orb_false_r, ?andb_true_r; reflexivity.
Qed.

Lemma s_handled_eq t n : item_ok t = true -> s_handled (to_sitem t) n = handled t n.
Proof.
  unfold item_ok, s_handled, handled, to_sitem. cbn [s_inc s_exc].
  destruct (t_inc t), (t_exc t); intros H; try discriminate;
    rewrite ?orb_false_r; reflexivity.
Qed.

Lemma contains_ph_existsb t v : item_ok t = true ->
  contains_ph (t_inc t) (t_exc t) v = existsb (handled t) (placeholders v).
Proof.
  intros Hok. unfold contains_ph. induction (placeholders v) as [|n l IH]; [reflexivity|].
  cbn [existsb]. rewrite IH, (handled_cond t n Hok). reflexivity.
Qed.

Lemma flat_map_texts {B} (f : str -> B) l :
  flat_map (fun x => match x with VText t => [f t] | VBad => [] end) l =
  map f (flat_map (fun x => match x with VText t => [t] | VBad => [] end) l).
Proof. induction l as [|[t|] l IH]; cbn; rewrite ?IH; reflexivity. Qed.

Lemma vl_lookup_tabs vs n :
  vl_lookup vs n = match tabs_of vs n with
                   | STable (x :: l) => Ok (map (parse true) (x :: l))
                   | _ => SigmaErr E_Value
                   end.
Proof.
  unfold vl_lookup, tabs_of. destruct (assoc n vs) as [tab|]; [|reflexivity].
  destruct (match tab with TScalar x => [x] | TList l => l end) as [|x l]; [reflexivity|].
  destruct (forallb _ (x :: l)) eqn:F; [|reflexivity].
  rewrite flat_map_texts. destruct x; [reflexivity | discriminate].
Qed.

Lemma vl_lookup_noph vs n : Forall (fun r => placeholders r = []) (ph_reps (vl_lookup vs) n).
Proof.
  unfold ph_reps. rewrite vl_lookup_tabs. destruct (tabs_of vs n) as [|[|x l]]; try constructor.
  - apply placeholders_parse.
  - apply Forall_map, Forall_forall. intros a _. apply placeholders_parse.
Qed.

Lemma base_cb_shape vs t rx n :
  Forall (fun r => placeholders r = if handled t n then [] else [n]) (ph_reps (base_cb vs t rx) n).
Proof.
  unfold ph_reps, base_cb. destruct (handled t n); [|repeat constructor].
  destruct (t_kind t); [apply vl_lookup_noph | repeat constructor; destruct rx; reflexivity..].
Qed.

Lemma base_cb_nonempty vs t rx n : base_cb vs t rx n <> Ok [].
Proof.
  unfold base_cb. destruct (handled t n); [|discriminate].
  destruct (t_kind t); try discriminate.
  rewrite vl_lookup_tabs. destruct (tabs_of vs n) as [|[|x l]]; discriminate.
Qed.

Lemma base_cb_spec vs t rx n : item_ok t = true ->
  match base_cb vs t rx n with
  | Ok reps => if s_handled (to_sitem t) n
               then s_repl (tabs_of vs) (to_sitem t) rx n = Some (map items reps)
               else reps = [[PPh n]]
  | SigmaErr _ => s_handled (to_sitem t) n = true /\ s_repl (tabs_of vs) (to_sitem t) rx n = None
  | Crash _ => False
  end.
Proof.
  intros Hok. rewrite (s_handled_eq t n Hok). unfold base_cb, s_repl, to_sitem. cbn [s_kind].
  destruct (handled t n); [|reflexivity].
  destruct (t_kind t); [|destruct rx; reflexivity..].
  rewrite vl_lookup_tabs. destruct (tabs_of vs n) as [|[|x l]]; try (split; reflexivity).
  f_equal. rewrite map_map. apply map_ext. intros a. symmetry. apply parse_items.
Qed.

Lemma base_replace_ph vs t rx v l : replace_placeholders (base_cb vs t rx) v = Ok l ->
  Forall (fun w => placeholders w = filter (fun n => negb (handled t n)) (placeholders v)) l.
Proof.
  intros E. generalize (replace_placeholders_cases (base_cb vs t rx) v). rewrite E.
  intros [-> _]. apply Forall_map.
  eapply Forall_impl; [|exact (subst_placeholders _ _ v (base_cb_shape vs t rx))].
  intros ch. rewrite placeholders_rp_join. trivial.
Qed.

Definition expand_parts (vs : vars) (t : titem) (rx : bool) (v : sstring) : outcome (list sstring) :=
  if contains_ph (t_inc t) (t_exc t) v then replace_placeholders (base_cb vs t rx) v else Ok [v].

Lemma apply_value_ok vs t x rs : base_kind t -> apply_value vs t x = Ok rs ->
  match x with
  | VS v => exists l, expand_parts vs t false v = Ok l /\ rs = map VS l
  | VR v => exists l, expand_parts vs t true v = Ok l /\ rs = map VR l /\
                      (compile_ok v = true -> forallb compile_ok l = true)
  | VQ _ _ => rs = [x]
  end.
Proof.
  intros Hk. unfold apply_value, expand_parts. rewrite (base_kind_elim t _ _ Hk).
  destruct x as [v|v|e i]; [| |intros [= <-]; reflexivity]; destruct (contains_ph _ _ v).
  - destruct (replace_placeholders _ v) as [l| |]; try discriminate. intros [= <-]. eauto.
  - intros [= <-]. exists [v]. auto.
  - destruct (replace_placeholders _ v) as [l| |]; try discriminate. cbn [obind].
    destruct (forallb compile_ok l) eqn:F; try discriminate. intros [= <-]. eauto.
  - intros [= <-]. exists [v]. cbn [forallb]. repeat split. intros ->. reflexivity.
Qed.

Lemma expand_parts_ph vs t rx v l : item_ok t = true -> expand_parts vs t rx v = Ok l ->
  Forall (fun w => placeholders w = filter (fun n => negb (handled t n)) (placeholders v)) l.
Proof.
  intros Hok. unfold expand_parts. destruct (contains_ph _ _ v) eqn:Ec.
  - apply base_replace_ph.
  - intros [= <-]. repeat constructor. rewrite (contains_ph_existsb t v Hok) in Ec.
    symmetry. apply (existsb_filter _ _ Ec).
Qed.

Theorem handled_gone vs t x rs :
  item_ok t = true -> base_kind t ->
  apply_value vs t x = Ok rs ->
  Forall (fun r => placeholders (vparts r) =
                   filter (fun n => negb (handled t n)) (placeholders (vparts x))) rs.
Proof.
  intros Hok Hk H. apply (apply_value_ok vs t x rs Hk) in H.
  destruct x as [v|v|e i]; [destruct H as (l & E & ->) | destruct H as (l & E & -> & _) |
                            subst rs; repeat constructor];
    apply Forall_map; exact (expand_parts_ph vs t _ v l Hok E).
Qed.

Lemma convert_cases K v :
  match convert K v with
  | Ok _ => placeholders v = []
  | SigmaErr e => e = E_Placeholder \/ e_multi K = None \/ e_single K = None
  | Crash _ => False
  end.
Proof.
  induction v as [|p v IH]; [reflexivity|].
  destruct p; cbn [convert];
    [| destruct (e_multi K); [|auto] | destruct (e_single K); [|auto] | left; reflexivity];
    (destruct (convert K v); exact IH).
Qed.

Lemma render_value_cases field x :
  match render_value field x with
  | Ok _ => placeholders (vparts x) = []
  | SigmaErr e => e = E_Placeholder \/ e = E_Value /\ placeholders (vparts x) = []
  | Crash _ => False
  end.
Proof.
  destruct x as [v|v|ex i]; cbn [render_value vparts].
  - generalize (convert_cases K17 v). destruct (convert K17 v); cbn [obind]; [trivial | | trivial].
    intros [-> | [H | H]]; [left; reflexivity | discriminate H..].
  - unfold render_re. destruct (placeholders v); [reflexivity | left; reflexivity].
  - destruct field; [reflexivity|]. destruct (has_sub t_field ex); [right; split|]; reflexivity.
Qed.

Lemma render_value_ph field x : placeholders (vparts x) <> [] -> render_value field x = SigmaErr E_Placeholder.
Proof.
  intros H. generalize (render_value_cases field x).
  destruct (render_value field x); intros C; [contradiction | | contradiction].
  destruct C as [-> | [_ C]]; [reflexivity | contradiction].
Qed.

Lemma render_all_cases field l :
  match render_all field l with
  | Ok _ => Forall (fun x => placeholders (vparts x) = []) l
  | SigmaErr e => e = E_Placeholder \/ e = E_Value
  | Crash _ => False
  end.
Proof.
  induction l as [|x l IH]; [constructor|]. cbn [render_all].
  generalize (render_value_cases field x). destruct (render_value field x); cbn [obind]; [|tauto..].
  intros Hx. destruct (render_all field l); cbn [obind]; [constructor; assumption | exact IH..].
Qed.

Theorem run_ok_resolved c q : run c = Ok q ->
  exists vals, run_pipeline c = Ok vals /\ Forall (fun x => placeholders (vparts x) = []) vals.
Proof.
  unfold run. destruct (run_pipeline c) as [vals| |]; try discriminate. cbn [obind].
  unfold render_item. generalize (render_all_cases (c_field c) vals).
  destruct (render_all (c_field c) vals); try discriminate.
  intros F _. exists vals. split; [reflexivity | exact F].
Qed.

Theorem unresolved_fails c vals :
  run_pipeline c = Ok vals -> Exists (fun x => placeholders (vparts x) <> []) vals ->
  exists e, run c = SigmaErr e /\ (e = E_Placeholder \/ e = E_Value).
Proof.
  intros Hp Hex. unfold run. rewrite Hp. cbn [obind]. unfold render_item.
  generalize (render_all_cases (c_field c) vals).
  destruct (render_all (c_field c) vals) as [atoms|e|e]; cbn [obind]; intros C.
  - apply Exists_exists in Hex. destruct Hex as (x & Hx & Hn).
    destruct Hn. exact (proj1 (Forall_forall _ _) C x Hx).
  - exists e. split; [reflexivity | exact C].
  - destruct C.
Qed.

Theorem string_no_raw K v q : wf_escaping K = true -> convert K v = Ok q ->
  tread K q = Some (filter_items K (items v)) /\ forall n, ~ In (Ph n) (items v).
Proof.
  intros Hw H. split; [exact (convert_decode K v q Hw H)|].
  apply no_ph_items. generalize (convert_cases K v). rewrite H. trivial.
Qed.

Lemma rx_unescape_escape s : rx_unescape (rx_escape s) = Some s.
Proof.
  induction s as [|c s IH]; [reflexivity|].
  unfold rx_escape in *. cbn [flat_map].
  destruct (N.eqb c c_slash || N.eqb c c_bs) eqn:E.
  - cbn [app rx_unescape]. rewrite N.eqb_refl. rewrite IH. reflexivity.
  - apply orb_false_iff in E. destruct E as [_ Eb]. cbn [app rx_unescape]. rewrite Eb, IH. reflexivity.
Qed.

Theorem regex_no_raw v q : render_re v = Ok q ->
  rx_unescape q = Some (to_plain false v) /\ placeholders v = [].
Proof.
  unfold render_re. destruct (placeholders v) eqn:P; [|discriminate].
  intros H. injection H as <-. split; [apply rx_unescape_escape | reflexivity].
Qed.

Lemma K17_wf : wf_escaping K17 = true.
Proof. reflexivity. Qed.

Lemma isubst_lits h s l ch : isubst h (map Lit s ++ l) ch = map Lit s ++ isubst h l ch.
Proof. induction s as [|c s IH]; [reflexivity|]. cbn [map app isubst]. rewrite IH. reflexivity. Qed.

Lemma isubst_nil h l : isubst h l [] = l.
Proof.
  induction l as [|i l IH]; [reflexivity|].
  destruct i; cbn [isubst]; try (rewrite IH; reflexivity).
  destruct (h name); rewrite IH; reflexivity.
Qed.

Lemma map_prefixed {A A' B} (q : list B) {F0 : A -> list B} {G0 : A' -> list B} {F G l l'} :
  map F0 l = map G0 l' -> (forall a, F a = q ++ F0 a) -> (forall a, G a = q ++ G0 a) ->
  map F l = map G l'.
Proof.
  intros E HF HG.
  rewrite (map_ext _ _ HF), (map_ext _ _ HG), <- (map_map F0 (app q)), <- (map_map G0 (app q)), E.
  reflexivity.
Qed.

(* A name that is not handled is offered itself and nothing else: a singleton factor, which the product on
   the right leaves out, and the placeholder stays where it is.  Every part puts some items in front of what
   the rest gives, on both sides (map_prefixed). *)
Lemma subst_isubst (f : str -> list sstring) (h : str -> bool) v :
  (forall n, h n = false -> f n = [[PPh n]]) ->
  map (fun ch => items (subst v ch)) (cartesian (map f (placeholders v))) =
  map (isubst h (items v)) (cartesian (map (fun n => map items (f n)) (filter h (placeholders v)))).
Proof.
  intros Hun. induction v as [|p v IH]; [reflexivity|].
  destruct p.
  - apply (map_prefixed (map Lit s) IH); intros ch; [reflexivity|].
    rewrite (items_cons (PStr s)). apply isubst_lits.
  - apply (map_prefixed [Multi] IH); reflexivity.
  - apply (map_prefixed [Single] IH); reflexivity.
  - change (placeholders (PPh name :: v)) with (name :: placeholders v).
    change (items (PPh name :: v)) with (Ph name :: items v). cbn [filter map].
    destruct (h name) eqn:Hh.
    + cbn [map cartesian]. rewrite !map_cart_cons, flat_map_map. apply flat_map_ext. intros r.
      apply (map_prefixed (items r) IH); intros ch; cbn [subst isubst];
        [apply items_app | rewrite Hh; reflexivity].
    + rewrite (Hun name Hh). cbn [cartesian flat_map]. rewrite app_nil_r, map_map.
      apply (map_prefixed [Ph name] IH); intros ch; cbn [isubst]; [|rewrite Hh]; reflexivity.
Qed.

Lemma all_some_map_some {A B} (f : A -> option B) (g : A -> B) l :
  (forall x, In x l -> f x = Some (g x)) -> all_some (map f l) = Some (map g l).
Proof. exact (oseq_map_Some f g l). Qed.

Lemma all_some_map_none {A B} (f : A -> option B) l x : In x l -> f x = None -> all_some (map f l) = None.
Proof. exact (oseq_map_None f l x). Qed.

Lemma expand_parts_spec vs t rx v : item_ok t = true ->
  match expand_parts vs t rx v with
  | Ok l => s_expand (tabs_of vs) (to_sitem t) rx (items v) = Some (map items l)
  | SigmaErr _ => s_expand (tabs_of vs) (to_sitem t) rx (items v) = None
  | Crash _ => False
  end.
Proof.
  intros Hok. unfold expand_parts, s_expand. rewrite ph_of_items.
  destruct (contains_ph _ _ v) eqn:Ec.
  - pose proof (fun n => base_cb_spec vs t rx n Hok) as B.
    generalize (replace_placeholders_cases (base_cb vs t rx) v).
    set (cb := base_cb vs t rx) in *. destruct (replace_placeholders cb v) as [l| |].
    + (* no offer of this callback is empty, so it has succeeded on every placeholder: every table is there *)
      intros [-> A]. specialize (A (base_cb_nonempty vs t rx)).
      rewrite (all_some_map_some _ (fun n => map items (ph_reps cb n))).
      * f_equal. rewrite map_map, (map_ext _ _ (fun ch => items_rp_join v _)). symmetry.
        apply subst_isubst. intros n Hn. generalize (B n). unfold ph_reps. rewrite Hn.
        destruct (cb n); [trivial | intros []; discriminate | intros []].
      * intros n Hn. apply filter_In in Hn. generalize (B n).
        rewrite (A n (proj1 Hn)), (proj2 Hn). trivial.
    + intros (n & Hi & He). generalize (B n). rewrite He. intros [Hh Hr].
      rewrite (all_some_map_none _ _ n (proj2 (filter_In _ _ _) (conj Hi Hh)) Hr). reflexivity.
    + intros (n & _ & He). generalize (B n). rewrite He. trivial.
  - rewrite (contains_ph_existsb t v Hok) in Ec.
    rewrite (filter_ext _ _ (fun n => s_handled_eq t n Hok)), (proj1 (existsb_filter _ _ Ec)).
    cbn. rewrite isubst_nil. reflexivity.
Qed.

Lemma rx_valid_all l : forallb s_rx_valid (map items l) = forallb compile_ok l.
Proof. induction l as [|r l IH]; [reflexivity|]. cbn [map forallb]. rewrite IH, rx_valid_items. reflexivity. Qed.

Theorem base_step_spec vs t x : item_ok t = true -> base_kind t ->
  match x with VR v => compile_ok v = true | _ => True end ->
  match apply_value vs t x with
  | Ok rs => s_step (tabs_of vs) (to_sitem t) (sv x) = Some (map sv rs)
  | SigmaErr _ => s_step (tabs_of vs) (to_sitem t) (sv x) = None
  | Crash _ => False
  end.
Proof.
  intros Hok Hk Hc. unfold apply_value, s_step.
  rewrite (base_kind_elim t _ _ Hk), (to_sitem_kind t _ _ Hk).
  destruct x as [v|v|e i]; [| |reflexivity]; cbn [sv].
  - generalize (expand_parts_spec vs t false v Hok). unfold expand_parts.
    destruct (contains_ph _ _ v); [destruct (replace_placeholders _ v) as [l| |]|];
      cbn [obind]; intros E; try exact E; rewrite E; cbn [option_map]; rewrite ?map_map; reflexivity.
  - generalize (expand_parts_spec vs t true v Hok). unfold expand_parts.
    destruct (contains_ph _ _ v); [destruct (replace_placeholders _ v) as [l| |]|];
      cbn [obind]; intros E; try exact E; rewrite E; try reflexivity; rewrite rx_valid_all.
    + destruct (forallb compile_ok l); [rewrite !map_map|]; reflexivity.
    + (* an untouched regular expression is not recompiled by the model: its validity is the premise *)
      cbn [forallb]. rewrite Hc. reflexivity.
Qed.

Lemma apply_value_good vs t x rs : base_kind t -> good x -> apply_value vs t x = Ok rs -> Forall good rs.
Proof.
  intros Hk [Hp Hc] H. apply (apply_value_ok vs t x rs Hk) in H.
  destruct x as [v|v|e i]; [| |destruct Hp].
  - destruct H as (l & _ & ->). apply Forall_map, Forall_forall. intros w _. split; exact I.
  - destruct H as (l & _ & -> & F). apply Forall_map, Forall_forall. intros w Hw.
    split; [exact I | exact (proj1 (forallb_forall _ _) (F Hc) w Hw)].
Qed.

Lemma apply_item_spec vs t : item_ok t = true -> base_kind t -> forall l, Forall good l ->
  sim (map sv) (Forall good) (apply_item vs t l) (s_each (s_step (tabs_of vs) (to_sitem t)) (map sv l)).
Proof.
  intros Hok Hk. induction l as [|x l IH]; intros Hg.
  - split; [reflexivity | constructor].
  - apply Forall_cons_iff in Hg. destruct Hg as [Hx Hl]. cbn [apply_item map s_each].
    eapply sim_bind.
    + apply sim_intro; [exact (base_step_spec vs t x Hok Hk (proj2 Hx))|].
      intros a. exact (apply_value_good vs t x a Hk Hx).
    + intros a Ha. eapply sim_bind; [exact (IH Hl)|]. intros b Hb.
      split; [rewrite map_app; reflexivity | apply Forall_app; split; assumption].
Qed.

Theorem pipeline_spec vs field ts : Forall (fun t => item_ok t = true /\ base_kind t) ts ->
  forall l, Forall good l ->
  match apply_pipeline vs ts l with
  | Ok rs => s_pipeline (tabs_of vs) field (map to_sitem ts) (map sv l) = Some (map sv rs)
  | SigmaErr _ => s_pipeline (tabs_of vs) field (map to_sitem ts) (map sv l) = None
  | Crash _ => False
  end.
Proof.
  intros Hts l Hg. apply (sim_elim (map sv) (fun _ => True)). revert l Hg.
  induction Hts as [|t ts [Hok Hk] _ IH]; intros l Hg; [split; [reflexivity | exact I]|].
  cbn [apply_pipeline map s_pipeline]. unfold s_item. rewrite (to_sitem_kind t _ _ Hk).
  eapply sim_bind; [exact (apply_item_spec vs t Hok Hk l Hg) | exact IH].
Qed.

(* finding C17-F1: under `all` the replacements of one value are AND-linked *)
Definition witness_all : case :=
  {| c_field := true; c_re := false; c_all := true; c_mods := [MContains; MExpand];
     c_values := [[37; 120; 37]; [98]];
     c_items := [{| t_kind := KValueList; t_inc := None; t_exc := None |}];
     c_vars := [([120], TList [VText [49]; VText [50]])] |}.
Lemma linking_refuted :
  exists c q, run c = Ok q /\ s_accepts (lhs_of c) (c_all c) (expected c) (Ok q) = false
              /\ s_accepts (lhs_of c) false (expected c) (run {| c_field := c_field c; c_re := c_re c; c_all := false;
                     c_mods := c_mods c; c_values := c_values c; c_items := c_items c; c_vars := c_vars c |}) = true.
Proof. exists witness_all. eexists. split; [vm_compute; reflexivity|]. split; vm_compute; reflexivity. Qed.
