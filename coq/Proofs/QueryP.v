(* Reading back a rendered query (theorem read_show) and the end-to-end statement: the text rendered for a
   condition tree, read by the target language's reader, denotes the tree (theorem query_meaning). *)
From Coq Require Import List.
From PS Require Import Base.Chars Model.Backend Spec.Target Spec.Atom Spec.Lex Spec.Query
  Proofs.CharsP Proofs.BackendP Proofs.BackendDomP Proofs.FuelP Proofs.LexP.
Import ListNotations.

(* the reader does not know the number the model gives to the field of an in-list; the parser ignores it *)
Definition norm_tok (t : tok) : tok := match t with TIn d _ l => TIn d 0 l | x => x end.

Section Parse.
Variable K : cfg.
Variable asg : nat -> bool.
Notation lvl := (lvl K).

Lemma pe_loop_norm : forall f,
  (forall i ts, pe lvl asg f i (map norm_tok ts) =
                match pe lvl asg f i ts with Some (v, r) => Some (v, map norm_tok r) | None => None end) /\
  (forall o k v r, loop lvl asg f o k v (map norm_tok r) =
                   match loop lvl asg f o k v r with Some (v', r') => Some (v', map norm_tok r') | None => None end).
Proof.
  induction f as [|f [IHp IHl]]; split; intros; [reflexivity..| |].
  - destruct i as [|k].
    + destruct ts as [|[a n|d fl l|o| |] r]; try reflexivity.
      cbn [map norm_tok]. rewrite !pe_S, IHp. destruct (pe lvl asg f 3 r) as [[v [|[] r']]|]; reflexivity.
    + rewrite !pe_S. destruct (opat lvl (S k)) as [[]|]; [| | |apply IHp].
      * rewrite (IHp k ts). destruct ts as [|[| |[]| |] r]; try reflexivity.
        cbn [map norm_tok]. rewrite IHp. destruct (pe lvl asg f (S k) r) as [[v r']|]; reflexivity.
      * rewrite IHp. destruct (pe lvl asg f k ts) as [[v r]|]; [apply IHl|reflexivity].
      * rewrite IHp. destruct (pe lvl asg f k ts) as [[v r]|]; [apply IHl|reflexivity].
  - destruct r as [|[a n|d fl l|o'| |] r']; try reflexivity.
    cbn [map norm_tok]. rewrite !loop_S. destruct (op_eqb o' o); [|reflexivity].
    rewrite IHp. destruct (pe lvl asg f k r') as [[v' r'']|]; [apply IHl|reflexivity].
Qed.
End Parse.

Section Read.
Variable W : char -> bool.
Variable keys : list akey.
Variable atxt : nat -> bool -> str.
Variables ftxt vtxt : nat -> str.
Notation text := (stxt atxt ftxt vtxt).

(* The hypothesis of read_show on a token: the text of an atom decodes to an atom whose key stands in keys at the
   atom's number; the text of an in-list is no single atom and decodes, as a list, to keys that stand at the
   numbers l.  For the leaves the verification backend renders, leaf_faithful and inlist_faithful give the
   decoding; that the keys stand at these numbers, and that an in-list's text is no atom, no lemma provides. *)
Definition atom_reads (t : tok) : Prop :=
  match t with
  | TAtom a n => exists av, atom_decode W (text t) = Some av /\ index_of (key_of av) keys 0 = Some a /\ a_neg av = n
  | TIn d _ l => atom_decode W (text t) = None /\
                 exists ks, in_decode W (text t) = Some (d, ks) /\
                            all_some (map (fun k => index_of k keys 0) ks) = Some l
  | _ => True
  end.

Lemma tok_of_reads t : atom_reads t -> tok_of W keys (ltok_of atxt ftxt vtxt t) = Some (norm_tok t).
Proof.
  destruct t as [a n|d fl l|o| |]; cbn [atom_reads ltok_of tok_of norm_tok]; try reflexivity.
  - intros [av [Hd [Hi Hn]]]. rewrite Hd, Hi, Hn. reflexivity.
  - intros [Hd [ks [Hi Hk]]]. rewrite Hd, Hi, Hk. reflexivity.
Qed.

Lemma toks_of_reads ts : Forall atom_reads ts ->
  all_some (map (tok_of W keys) (map (ltok_of atxt ftxt vtxt) ts)) = Some (map norm_tok ts).
Proof.
  (* all_some of Spec/Query.v is oseq of CharsP, up to conversion *)
  intros H. rewrite map_map. apply oseq_map_Some. intros t Ht. exact (tok_of_reads t (proj1 (Forall_forall _ _) H t Ht)).
Qed.

Theorem read_show ts :
  (forall t, In t ts -> is_atom t = true -> shapeb (text t) = true) -> sep_ok ts = true -> Forall atom_reads ts ->
  read_query W keys (show vb_syntax atxt ftxt vtxt ts) = Some (map norm_tok ts).
Proof.
  intros Hs Hsep Hr. unfold read_query. rewrite (lex_show atxt ftxt vtxt ts Hs Hsep). apply toks_of_reads. exact Hr.
Qed.

Theorem query_meaning K asg c : cfg_ok K = true -> wfb K c = true ->
  (forall t, In t (conv K false c) -> is_atom t = true -> shapeb (text t) = true) ->
  Forall atom_reads (conv K false c) ->
  exists ts, read_query W keys (show vb_syntax atxt ftxt vtxt (conv K false c)) = Some ts /\
             exists f, pe (lvl K) asg f 3 ts = Some (den asg c, []).
Proof.
  intros HK Hw Hs Hr. exists (map norm_tok (conv K false c)). split.
  - apply read_show; [exact Hs|apply conv_sep_ok|exact Hr].
  - destruct (structure_b K asg c HK Hw) as [f Hf]. exists f.
    rewrite (proj1 (pe_loop_norm K asg f)), Hf. reflexivity.
Qed.

Theorem query_meaning_tparse K asg c : cfg_ok K = true -> wfb K c = true ->
  (forall t, In t (conv K false c) -> is_atom t = true -> shapeb (text t) = true) ->
  Forall atom_reads (conv K false c) ->
  exists ts, read_query W keys (show vb_syntax atxt ftxt vtxt (conv K false c)) = Some ts /\
             tparse (lvl K) asg ts = Some (den asg c).
Proof.
  intros HK Hw Hs Hr. destruct (query_meaning K asg c HK Hw Hs Hr) as [ts [Hq [f Hf]]].
  exists ts. split; [exact Hq|exact (tparse_complete K asg f _ _ Hf)].
Qed.
End Read.
