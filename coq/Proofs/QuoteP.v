(* The quoted form of a converted string reads back (C05): the induction of ConvertP run with qdecode, whose
   rounds are those of tdecode as long as no token starts with the quote. *)
From Coq Require Import NArith List Bool Lia.
From PS Require Import Base.Chars Base.Outcome Model.SString Spec.Items Proofs.OutcomeP Proofs.CharsP Proofs.ConvertP.
Import ListNotations.
Open Scope N_scope.

(* quoting configuration: as wf_escaping for the configuration with the quote added to the escaped
   characters, and the quote is neither the escape character nor the first character of a wildcard *)
Definition wf_quoting (K : ecfg) (q : char) : bool :=
  wf_escaping (with_quote K q) &&
  match e_esc K with Some e => negb (N.eqb e q) | None => false end &&
  match e_multi K with Some (m :: _) => negb (N.eqb m q) | _ => true end &&
  match e_single K with Some (m :: _) => negb (N.eqb m q) | _ => true end.

Lemma wf_quoting_parts K q : wf_quoting K q = true ->
  exists e, e_esc K = Some e /\ wf_escaping (with_quote K q) = true /\ N.eqb e q = false /\
    forall m w, e_multi K = Some (m :: w) \/ e_single K = Some (m :: w) -> N.eqb m q = false.
Proof.
  unfold wf_quoting. intros [[[Hwf Hq]%andb_prop Hm]%andb_prop Hs]%andb_prop.
  destruct (e_esc K) as [e|]; [|discriminate]. exists e. apply negb_true_iff in Hq. repeat split; trivial.
  intros m w [E|E]; rewrite E in *; apply negb_true_iff; assumption.
Qed.

Lemma qdecode_tstep f K q (c : char) s i r :
  N.eqb c q = false -> tstep K (c :: s) = Some (i, r) ->
  qdecode (S f) K q (c :: s) = option_map (cons i) (qdecode f K q r).
Proof.
  intros Hc. cbn [tstep qdecode]. rewrite Hc.
  destruct (match e_esc K with Some e => N.eqb e c | None => false end).
  - destruct s; [discriminate|]. intros [= <- <-]. reflexivity.
  - destruct (starts (e_multi K) (c :: s)); [intros [= <- <-]; reflexivity|].
    destruct (starts (e_single K) (c :: s)); intros [= <- <-]; reflexivity.
Qed.

Lemma token_not_quote K q e i t :
  wf_quoting K q = true -> e_esc K = Some e -> token (with_quote K q) e i t ->
  exists c t', t = c :: t' /\ N.eqb c q = false.
Proof.
  intros (e' & He' & Hwf & Hq & Hhd)%wf_quoting_parts He. rewrite He in He'. injection He' as <-.
  destruct (wf_escaping_parts (with_quote K q) e He Hwf) as (_ & Hm & Hs & _).
  cbn [with_quote e_multi e_single] in Hm, Hs.
  intros [c | c _ Hc | w Hw | w Hw].
  - exists e, [c]. split; [reflexivity | exact Hq].
  - exists c, []. split; [reflexivity|]. apply (mem_neq _ _ _ Hc).
    unfold escaped_chars. cbn [with_quote e_multi e_single e_add]. rewrite !mem_app. simpl.
    rewrite N.eqb_refl, !orb_true_r. reflexivity.
  - cbn [with_quote e_multi] in Hw. rewrite Hw in Hm. destruct w as [|m w]; [discriminate | eauto 7].
  - cbn [with_quote e_single] in Hw. rewrite Hw in Hs. destruct w as [|m w]; [discriminate | eauto 7].
Qed.

Theorem quoted_decode K q v s :
  wf_quoting K q = true -> convert_quoted K q v = Ok s ->
  qread (with_quote K q) q s = Some (filter_items K (items v)).
Proof.
  intros Hwf Hs. set (K' := with_quote K q).
  destruct (wf_quoting_parts K q Hwf) as (e & He & Hwf' & Hq & _). change (e_esc K) with (e_esc K') in He.
  apply obind_ok in Hs as (body & Hb & [= <-]). unfold qread. rewrite N.eqb_refl.
  assert (H : Reads (fun f => qdecode f K' q) (body ++ [q]) (filter_items K' (items v) ++ [])).
  { apply (convert_tokens K' e _ He); [|exact Hb|].
    - intros i t r l Ht. pose proof (tstep_token K' e i t r He Hwf' Ht) as Hst.
      destruct (token_not_quote K q e i t Hwf He Ht) as (c & t' & -> & Hc).
      apply reads_token; [discriminate|]. intros f. exact (qdecode_tstep f K' q c (t' ++ r) i r Hc Hst).
    - intros [|f] Hf; [inversion Hf|]. cbn [qdecode]. rewrite He, Hq, N.eqb_refl. reflexivity. }
  rewrite app_nil_r in H. apply H. rewrite app_length. simpl. lia.
Qed.
