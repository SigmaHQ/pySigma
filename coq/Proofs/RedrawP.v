(* C20 - the redraw loop of SigmaFilter.apply_on_rule makes the result independent of the draw sequence:
   for EVERY sequence of candidate draws per filter application (repeated draws, the same draw first in every
   application, ...) in which the loop finds an acceptable prefix, the prefixes it accepts are fresh, and the rule
   with its filters resolves to the nameless specification. *)
From Coq Require Import NArith List FinFun Bool.
From PS Require Import Base.Chars Model.Determinism Spec.DetSpec Proofs.CharsP Proofs.NamesP.
Import ListNotations.
Open Scope N_scope.

Lemma pick_spec s m p rest : pick s m = Some (p, rest) -> In p s /\ prefix_free p m = true.
Proof.
  induction s as [|x s IH]; simpl; [discriminate|].
  destruct (prefix_free x m) eqn:E; [intros [= -> _]; auto | intros H; split; [right|]; apply IH, H].
Qed.

Lemma map_fst_combine {A B} (a : list A) : forall b : list B, length a = length b -> map fst (combine a b) = a.
Proof. induction a as [|x a IH]; intros [|y b] [=]; simpl; [reflexivity | f_equal; auto]. Qed.
Lemma map_snd_combine {A B} (a : list A) : forall b : list B, length a = length b -> map snd (combine a b) = b.
Proof. induction a as [|x a IH]; intros [|y b] [=]; simpl; [reflexivity | f_equal; auto]. Qed.

Lemma block_keys p f : map fst (block (p, f)) = map (pfx p) (map fst (f_dets f)).
Proof. unfold block. simpl. rewrite !map_map. reflexivity. Qed.

(* why accepted prefixes are pairwise different: the filter applied with prefix p left a name under p behind *)
Lemma prefix_free_block q p f m :
  f_dets f <> [] -> prefix_free q (m ++ block (p, f)) = true -> prefix_free q m = true /\ q <> p.
Proof.
  unfold prefix_free. rewrite forallb_app, andb_true_iff. intros Hf [Hm Hb]. split; [exact Hm|]. intros ->.
  destruct (f_dets f) as [|[n v] l] eqn:E; [now elim Hf|].
  apply (no_prefix_under _ _ n Hb). rewrite block_keys, E. now left.
Qed.

(* static (draw independent) premise on a filter *)
Definition filter_okb (f : sfilter) : bool :=
  nodupb (map fst (f_dets f)) && negb (match f_dets f with [] => true | _ => false end) && closedb f.

Lemma filter_okb_spec f :
  filter_okb f = true -> NoDup (map fst (f_dets f)) /\ f_dets f <> [] /\ closedb f = true.
Proof.
  unfold filter_okb. intros [[H1%snodupb_spec H2]%andb_prop H3]%andb_prop.
  repeat split; auto. intros E. now rewrite E in H2.
Qed.

Lemma apply_filter_dets p f r :
  NoDup (map fst (r_dets r)) -> NoDup (map fst (f_dets f)) -> prefix_free p (r_dets r) = true ->
  r_dets (apply_filter p f r) = r_dets r ++ block (p, f) /\ NoDup (map fst (r_dets r ++ block (p, f))).
Proof.
  intros Hr Hf Hp.
  assert (Hnd : NoDup (map fst (r_dets r ++ block (p, f)))).
  { rewrite map_app, block_keys. apply NoDup_app_intro; [exact Hr | |].
    - apply FinFun.Injective_map_NoDup; [exact (under_inj p) | exact Hf].
    - intros k Hk [n [<- _]]%in_map_iff. exact (no_prefix_under _ _ _ Hp Hk). }
  split; [|exact Hnd]. unfold apply_filter. simpl. rewrite block_fold. apply fold_dset_fresh, Hnd.
Qed.

Lemma choose_length : forall fs streams r ch, choose streams fs r = Some ch -> length (map fst ch) = length fs.
Proof.
  setoid_rewrite map_length.
  induction fs as [|f fs IH]; intros [|s ss] r ch; simpl; try discriminate; [now intros [= <-]|].
  destruct (pick s (r_dets r)) as [[p rest]|]; [|discriminate].
  destruct (choose ss fs _) as [ch'|] eqn:Ec; [|discriminate]. intros [= <-]. simpl. f_equal. apply (IH _ _ _ Ec).
Qed.

Lemma choose_props : forall fs streams r ch,
  choose streams fs r = Some ch ->
  NoDup (map fst (r_dets r)) ->
  forallb filter_okb fs = true ->
  NoDup (map fst (r_dets r ++ concat (map block (combine (map fst ch) fs)))) /\
  (forall p, In p (map fst ch) -> prefix_free p (r_dets r) = true /\ In p (concat streams)) /\
  NoDup (map fst ch).
Proof.
  induction fs as [|f fs IH]; intros [|s ss] r ch Hch Hr Hok; simpl in Hch; try discriminate.
  - injection Hch as <-. simpl. rewrite app_nil_r. split; [exact Hr|]. split; [intros p [] | constructor].
  - destruct (pick s (r_dets r)) as [[p rest]|] eqn:Ep; [|discriminate].
    destruct (choose ss fs (apply_filter p f r)) as [ch'|] eqn:Ec; [|discriminate].
    injection Hch as <-. simpl in Hok. apply andb_true_iff in Hok as [Hf Hok].
    apply filter_okb_spec in Hf as [Hf1 [Hf2 _]]. apply pick_spec in Ep as [Hin Hfree].
    destruct (apply_filter_dets p f r Hr Hf1 Hfree) as [Ed Hnd1].
    specialize (IH ss _ ch' Ec). rewrite Ed in IH. destruct (IH Hnd1 Hok) as [Hnd [Hps Hndp]].
    assert (Hps' : forall q, In q (map fst ch') -> prefix_free q (r_dets r) = true /\ q <> p)
      by (intros q Hq; apply (prefix_free_block q p f), Hps, Hq; exact Hf2).
    simpl. rewrite app_assoc. split; [exact Hnd|]. split.
    + intros q [<-|Hq]; split.
      * exact Hfree.
      * apply in_or_app. left. exact Hin.
      * apply Hps', Hq.
      * apply in_or_app. right. apply Hps, Hq.
    + constructor; [|exact Hndp]. intros [_ Hq]%Hps'. exact (Hq eq_refl).
Qed.

(* draw independent premise: shape of every candidate draw, dict keys unique, the rule's condition names no
   identifier and no pattern starting with '_', filters define at least one detection and only name their own *)
Definition static_okb (L : nat) (r : rule) (streams : list (list str)) (fs : list sfilter) : bool :=
  forallb (forallb (draw_okb L)) streams
  && nodupb (map fst (r_dets r))
  && forallb (fun n => negb (starts_us n)) (ids (r_cond r))
  && forallb (fun p => negb (starts_us p)) (pats (r_cond r))
  && forallb filter_okb fs.

Theorem redraw_makes_fresh L r streams fs ch :
  choose streams fs r = Some ch -> static_okb L r streams fs = true ->
  freshb L r (combine (map fst ch) fs) [] = true.
Proof.
  unfold static_okb. intros Hch [[[[Hs Hr%snodupb_spec]%andb_prop Hi]%andb_prop Hp]%andb_prop Hf]%andb_prop.
  destruct (choose_props fs streams r ch Hch Hr Hf) as [Hnd [Hps Hndp]].
  assert (ED : drawn (combine (map fst ch) fs) [] = map fst ch).
  { unfold drawn. simpl. rewrite app_nil_r. apply map_fst_combine, (choose_length _ _ _ _ Hch). }
  rewrite forallb_forall in Hs, Hi, Hf.
  assert (HD : forall d, In d (map fst ch) -> draw_okb L d = true).
  { intros d Hd. destruct (Hps d Hd) as [_ [s [Hs1 Hs2]]%in_concat]. apply Hs in Hs1. rewrite forallb_forall in Hs1. apply Hs1, Hs2. }
  unfold freshb. rewrite ED. repeat (apply andb_true_intro; split).
  - apply forallb_forall, HD.
  - apply snodupb_spec, Hndp.
  - apply snodupb_spec. unfold all_dets. simpl. now rewrite app_nil_r.
  - apply forallb_forall. intros [k v] Hkv. simpl. apply negb_true_iff, not_true_iff_false.
    intros [d [Hd Hpk]]%existsb_exists. destruct (Hps d Hd) as [Hfree _].
    now rewrite (proj1 (no_prefix_spec _ _) Hfree k (in_map fst _ _ Hkv)) in Hpk.
  - apply forallb_forall. intros n Hn. apply negb_true_iff, not_true_iff_false. intros E%internal_starts_us.
    + apply Hi in Hn. now rewrite E in Hn.
    + intros d Hd. apply (draw_okb_spec L), HD, Hd.
  - exact Hp.
  - apply forallb_forall. intros [p f] Hpf%in_combine_r. apply filter_okb_spec, Hf, Hpf.
Qed.

Theorem filters_any_draws L r streams fs ch :
  choose streams fs r = Some ch -> static_okb L r streams fs = true ->
  names_run r (combine (map fst ch) fs) [] = spec_names r fs [].
Proof.
  intros Hch Hst. rewrite (names_spec L) by (eapply redraw_makes_fresh; eauto).
  rewrite map_snd_combine by apply (choose_length _ _ _ _ Hch). reflexivity.
Qed.

Corollary filters_draw_sequence_free L r fs streams streams' ch ch' :
  choose streams fs r = Some ch -> choose streams' fs r = Some ch' ->
  static_okb L r streams fs = true -> static_okb L r streams' fs = true ->
  names_run r (combine (map fst ch) fs) [] = names_run r (combine (map fst ch') fs) [].
Proof.
  intros H1 H2 S1 S2. now rewrite (filters_any_draws L r streams fs ch H1 S1), (filters_any_draws L r streams' fs ch' H2 S2).
Qed.

(* a loop that accepts a draw under the weaker test own_free - "none of THIS filter's renamed identifiers exists
   yet", where prefix_free asks that no detection name of the rule starts with the prefix - lets two filters
   with different detection names share a prefix; the result then depends on the draws *)
Definition own_free (p : str) (f : sfilter) (m : list (str * str)) : bool :=
  forallb (fun kv => negb (haskey (pfx p (fst kv)) m)) (f_dets f).
Fixpoint pick_weak (stream : list str) (f : sfilter) (m : list (str * str)) : option (str * list str) :=
  match stream with
  | [] => None
  | p :: rest => if own_free p f m then Some (p, rest) else pick_weak rest f m
  end.
Fixpoint choose_weak (streams : list (list str)) (fs : list sfilter) (r : rule) : option (list (str * list str)) :=
  match streams, fs with
  | [], [] => Some []
  | s :: ss, f :: fs' =>
      match pick_weak s f (r_dets r) with
      | Some (p, rest) => option_map (cons (p, rest)) (choose_weak ss fs' (apply_filter p f r))
      | None => None
      end
  | _, _ => None
  end.

Definition w_fa : sfilter :=
  {| f_dets := [([97], [65]); ([98], [66])]; f_cond := CNot (CSel false them) |}.
Definition w_fb : sfilter := {| f_dets := [([99], [67])]; f_cond := CNot (CId [99]) |}.
Definition w_pa := dn s_filt 97.
Definition w_pb := dn s_filt 98.

Theorem weak_redraw_refuted :
  exists r fs streams streams' ch ch',
    choose_weak streams fs r = Some ch /\ choose_weak streams' fs r = Some ch' /\
    static_okb 16 r streams fs = true /\ static_okb 16 r streams' fs = true /\
    names_run r (combine (map fst ch) fs) [] <> names_run r (combine (map fst ch') fs) [].
Proof.
  exists w_rule2, [w_fa; w_fb], [[w_pa]; [w_pa; w_pb]], [[w_pa]; [w_pb]].
  eexists. eexists. split; [vm_compute; reflexivity|]. split; [vm_compute; reflexivity|].
  split; [vm_compute; reflexivity|]. split; [vm_compute; reflexivity|]. vm_compute. discriminate.
Qed.

(* the real loop on the same adversarial sequences *)
Example redraw_same_draw_first :
  option_map (map fst) (choose [[w_pa]; [w_pa; w_pb]] [w_fa; w_fb] w_rule2) = Some [w_pa; w_pb].
Proof. vm_compute. reflexivity. Qed.
