(* C09 - Model.RefOrder against Spec.RefOrder.  The ordering step (a depth-first traversal) returns a
   permutation in reference order and leaves such a list alone; conversion in an order succeeds iff it
   is a reference order; under unique keys neither success nor the emitted queries depend on the order
   of the documents (what a rule yields is computed from the documents alone, references by key). *)
From Coq Require Import NArith List Bool Arith Permutation Relations Lia.
From PS Require Import Base.Chars Base.Outcome Model.RefOrder Spec.RefOrder Proofs.CharsP.
Import ListNotations.
Local Open Scope nat_scope.

Lemma memn_In i l : memn i l = true <-> In i l.
Proof. apply existsb_eqb_In, Nat.eqb_eq. Qed.
Lemma memn_false i l : memn i l = false <-> ~ In i l.
Proof. rewrite <- memn_In. destruct (memn i l); split; congruence. Qed.

Definition visits (f : nat) (rr : list (list nat)) (M : list nat) (js : list nat) (st : vstate) : vstate :=
  fold_left (fun s j => visit f rr M j s) js st.

Lemma visits_cons f rr M j js st : visits f rr M (j :: js) st = visits f rr M js (visit f rr M j st).
Proof. reflexivity. Qed.

Lemma visits_inv f rr M (I : vstate -> Prop) : forall js,
  (forall j s, In j js -> I s -> I (visit f rr M j s)) -> forall st, I st -> I (visits f rr M js st).
Proof.
  induction js as [|j js IH]; intros H st Hs; [assumption|].
  rewrite visits_cons. apply IH; [intros k s Hk; apply H; now right|]. apply H; [now left | assumption].
Qed.

Lemma topo_visits rr M : topo rr M = snd (visits (S (length M)) rr M M ([], [])).
Proof. reflexivity. Qed.

Lemma visit_cases f rr M i st :
  (In i (fst st) \/ ~ In i M) /\ visit (S f) rr M i st = st \/
  ~ In i (fst st) /\ In i M /\
  visit (S f) rr M i st =
    let st' := visits f rr M (children rr i) (i :: fst st, snd st) in (fst st', snd st' ++ [i]).
Proof.
  unfold visits. simpl. destruct (memn i (fst st)) eqn:E1; simpl.
  - left. apply memn_In in E1. auto.
  - apply memn_false in E1. destruct (memn i M) eqn:E2; simpl.
    + right. apply memn_In in E2. auto.
    + left. apply memn_false in E2. auto.
Qed.

Lemma visit_keeps rr M base : forall f i st, incl base (fst st) -> incl base (fst (visit f rr M i st)).
Proof.
  induction f as [|f IH]; intros i st H; [exact H|].
  destruct (visit_cases f rr M i st) as [[_ ->]|(_ & _ & ->)]; [exact H|].
  apply (visits_inv f rr M (fun s => incl base (fst s))); [intros j s _; apply IH | now apply incl_tl].
Qed.

Lemma visits_mono rr M f js st : incl (fst st) (fst (visits f rr M js st)).
Proof. apply visits_inv; [intros j s _; apply visit_keeps | apply incl_refl]. Qed.

Lemma visit_marks rr M f i st : f <> 0 -> In i M -> In i (fst (visit f rr M i st)).
Proof.
  intros Hf Hi. destruct f as [|f]; [contradiction|].
  destruct (visit_cases f rr M i st) as [[[H|H] ->]|(_ & _ & ->)]; [exact H | contradiction |].
  apply visits_mono. now left.
Qed.

Lemma visits_marks rr M f : f <> 0 -> forall js st, incl js M -> incl js (fst (visits f rr M js st)).
Proof.
  intros Hf. induction js as [|j js IH]; intros st Hjs x Hx; [destruct Hx|].
  rewrite visits_cons. apply incl_cons_inv in Hjs. destruct Hjs as [Hj Hjs].
  destruct Hx as [<-|Hx]; [|now apply IH]. now apply visits_mono, visit_marks.
Qed.

(* stack: the rules whose visit is under way, marked and not yet in the order *)
Definition sinv (M stack : list nat) (st : vstate) : Prop :=
  NoDup (fst st) /\ Permutation (fst st) (stack ++ snd st) /\ incl (fst st) M.

Lemma sinv_push M stack i st :
  sinv M stack st -> ~ In i (fst st) -> In i M -> sinv M (i :: stack) (i :: fst st, snd st).
Proof.
  intros (Hn & Hp & Hm) Hi HiM. repeat split; cbn [fst snd].
  - now constructor.
  - now apply perm_skip.
  - now apply incl_cons.
Qed.

Lemma visit_sinv rr M : forall f stack i st, sinv M stack st -> sinv M stack (visit f rr M i st).
Proof.
  induction f as [|f IH]; intros stack i st Hs; [exact Hs|].
  destruct (visit_cases f rr M i st) as [[_ ->]|(Hi & HiM & ->)]; [exact Hs|].
  assert (H : sinv M (i :: stack) (visits f rr M (children rr i) (i :: fst st, snd st)))
    by (apply visits_inv; [intros j s _; apply IH | now apply sinv_push]).
  destruct H as (Hn & Hp & Hm). repeat split; cbn [fst snd]; auto.
  rewrite Hp, app_assoc. apply Permutation_cons_append.
Qed.

Lemma visits_sinv rr M f stack js st : sinv M stack st -> sinv M stack (visits f rr M js st).
Proof. apply visits_inv. intros j s _. apply visit_sinv. Qed.

Lemma topo_perm rr M : NoDup M -> Permutation (topo rr M) M.
Proof.
  intros HM. rewrite topo_visits.
  assert (H0 : sinv M [] ([], [])) by (repeat split; simpl; auto using incl_nil_l, NoDup_nil).
  destruct (visits_sinv rr M (S (length M)) [] M _ H0) as (Hn & Hp & Hm).
  cbn [app] in Hp. apply NoDup_Permutation; [now rewrite <- Hp | assumption|].
  intros x. rewrite <- Hp. split; [apply Hm|].
  apply (visits_marks rr M (S (length M))); auto using incl_refl.
Qed.

Lemma topo_ok_nil rr : topo_ok rr [].
Proof. intros l1 i l2 H. destruct l1; discriminate. Qed.

(* `refers rr c r` (Spec), `In r (children rr c)` (Model) and `In r (nth c rr [])` (Spec.topo_ok) are one
   notion up to conversion; the proofs pass a term of one where another is expected *)
Lemma topo_ok_snoc rr o i : topo_ok rr o -> incl (children rr i) o -> topo_ok rr (o ++ [i]).
Proof.
  intros Ho Hi l1 x l2 E.
  destruct l2 as [|y l2 _] using rev_ind.
  - apply app_inj_tail in E. destruct E as [<- <-]. exact Hi.
  - rewrite app_comm_cons, app_assoc in E. apply app_inj_tail in E.
    destruct E as [E _]. eapply Ho. exact E.
Qed.

Lemma clos_trans_first {A} (R : A -> A -> Prop) x y : clos_trans A R x y -> exists z, R x z.
Proof. induction 1 as [x y H | x y z _ IH1 _ _]; eauto. Qed.

Lemma topo_ok_acyclic rr ord :
  topo_ok rr ord -> NoDup ord -> (forall c r, refers rr c r -> In c ord) -> acyclic rr.
Proof.
  intros Ht Hnd Hin x C.
  destruct (clos_trans_first _ _ _ C) as [z Hz]. apply Hin, in_split in Hz. destruct Hz as [a [b E]].
  (* the rules before x are closed under references and contain those of x, so x reaches only them *)
  assert (Cl : forall y, In y a -> incl (children rr y) a).
  { intros y Hy. apply in_split in Hy. destruct Hy as [a1 [a2 ->]]. rewrite <- app_assoc in E.
    intros j Hj. apply in_or_app. left. exact (Ht a1 y _ E j Hj). }
  assert (R : forall y w, clos_trans_1n nat (refers rr) y w -> incl (children rr y) a -> In w a).
  { induction 1 as [y w H|y v w H _ IH]; intros Hy; [now apply Hy|]. apply IH, Cl, Hy, H. }
  rewrite E in Hnd. apply NoDup_remove_2 in Hnd. apply Hnd, in_or_app. left.
  apply (R x x); [now apply clos_trans_t1n | exact (Ht a x b E)].
Qed.

Section Topo.
  Variable rr : list (list nat).
  Variable M : list nat.
  Hypothesis Hcl : forall i, In i M -> incl (children rr i) M.
  Hypothesis Hac : acyclic rr.

  Notation "s ~> i" := (clos_trans nat (refers rr) s i) (at level 70).

  (* the fuel exceeds the number of unmarked members *)
  Definition vinv (f : nat) (stack : list nat) (st : vstate) : Prop :=
    sinv M stack st /\ length M - length (fst st) < f /\ topo_ok rr (snd st).

  Lemma visit_topo : forall f stack i st,
    (forall x, In x stack -> x ~> i) -> vinv f stack st -> vinv f stack (visit f rr M i st).
  Proof.
    induction f as [|f IH]; intros stack i st Ha (Hs & Hf & Ht); [inversion Hf|].
    split; [now apply visit_sinv|].
    destruct (visit_cases f rr M i st) as [[_ ->]|(Hi & HiM & ->)]; [auto|].
    pose proof (sinv_push M stack i st Hs Hi HiM) as Hs0.
    assert (H : vinv f (i :: stack) (visits f rr M (children rr i) (i :: fst st, snd st))).
    { apply visits_inv.
      - intros j s Hj. apply IH.
        intros x [<-|Hx]; [now apply t_step | eapply t_trans; [apply Ha, Hx | now apply t_step]].
      - split; [exact Hs0 | split; [|exact Ht]].
        destruct Hs0 as (Hn & _ & Hm). pose proof (NoDup_incl_length Hn Hm) as Hl.
        cbn [fst snd length] in *. clear - Hf Hl. lia. }
    destruct H as ((_ & Hp & _) & Hf2 & Ht2). cbn [fst snd]. split; [exact (Nat.lt_lt_succ_r _ _ Hf2)|].
    apply topo_ok_snoc; [exact Ht2|]. intros j Hj.
    (* j is marked now; were it not in the order, it would be on the stack and reach i: a cycle *)
    assert (Hj' : In j (fst (visits f rr M (children rr i) (i :: fst st, snd st)))).
    { apply (visits_marks rr M f) with (js := children rr i); [intros ->; inversion Hf2 | apply Hcl, HiM | exact Hj]. }
    rewrite Hp, in_app_iff in Hj'.
    destruct Hj' as [[E|Hx]|Hx]; [destruct (Hac i) | destruct (Hac j) | exact Hx].
    - rewrite <- E in Hj. now apply t_step.
    - eapply t_trans; [apply Ha, Hx | now apply t_step].
  Qed.

  Lemma topo_topo_ok : topo_ok rr (topo rr M).
  Proof.
    rewrite topo_visits.
    enough (H : vinv (S (length M)) [] (visits (S (length M)) rr M M ([], []))) by apply H.
    apply visits_inv.
    - intros j s _. apply visit_topo. intros x [].
    - repeat split; simpl; auto using topo_ok_nil, incl_nil_l, NoDup_nil. lia.
  Qed.
End Topo.

Lemma visits_all_marked rr M f js st : incl js (fst st) -> visits f rr M js st = st.
Proof.
  intros H. apply (visits_inv f rr M (fun s => s = st)); [|reflexivity].
  intros j s Hj ->. destruct f as [|f]; [reflexivity|].
  destruct (visit_cases f rr M j st) as [[_ ->]|[Hn _]]; [reflexivity | destruct Hn; now apply H].
Qed.

Lemma topo_fixpoint rr M : NoDup M -> topo_ok rr M -> topo rr M = M.
Proof.
  intros Hnd Ht. rewrite topo_visits.
  enough (L : forall l2 l1, M = l1 ++ l2 ->
                visits (S (length M)) rr M l2 (rev l1, l1) = (rev M, M)) by exact (f_equal snd (L M [] eq_refl)).
  induction l2 as [|i t IH]; intros l1 E.
  - rewrite app_nil_r in E. now subst.
  - rewrite visits_cons.
    destruct (visit_cases (length M) rr M i (rev l1, l1)) as [[[H|H] _]|(_ & _ & ->)]; cbn [fst snd] in *.
    + rewrite E in Hnd. apply NoDup_remove_2 in Hnd. rewrite <- in_rev in H.
      destruct Hnd. apply in_or_app. now left.
    + destruct H. rewrite E. apply in_elt.
    + (* the references of i stand in l1 and are marked *)
      rewrite (visits_all_marked rr M (length M) (children rr i)), <- rev_unit; cbn [fst snd].
      * apply IH. now rewrite <- app_assoc.
      * intros j Hj. right. rewrite <- in_rev. exact (Ht l1 i t E j Hj).
Qed.

Lemma resolve_refs_oseq ds rs : resolve_refs ds rs = oseq (map (lookup ds) rs).
Proof. induction rs as [|r t IH]; simpl; [|rewrite IH]; reflexivity. Qed.

Lemma resolve_each_oseq ds l : resolve_each ds l = oseq (map (fun d => resolve_refs ds (doc_refs d)) l).
Proof. induction l as [|d t IH]; simpl; [|rewrite IH]; reflexivity. Qed.

Lemma lookup_Some ds r : forall i, lookup ds r = Some i ->
  exists d, nth_error ds i = Some d /\ matches r d = true.
Proof.
  induction ds as [|d t IH]; simpl; intros i H; [discriminate|].
  destruct (lookup t r) as [j|] eqn:E.
  - injection H as <-. now apply IH.
  - destruct (matches r d) eqn:Em; [|discriminate]. injection H as <-. simpl. eauto.
Qed.

Lemma lookup_None ds r : lookup ds r = None <-> dangling ds r.
Proof.
  split.
  - induction ds as [|d t IH]; simpl; intros H x Hx; [destruct Hx|].
    destruct (lookup t r); [discriminate|]. destruct (matches r d) eqn:Em; [discriminate|].
    destruct Hx as [<-|Hx]; [exact Em | now apply IH].
  - intros H. destruct (lookup ds r) as [i|] eqn:E; [|reflexivity].
    apply lookup_Some in E. destruct E as [d [Hd Hm]].
    rewrite (H d) in Hm by eauto using nth_error_In. discriminate.
Qed.

Lemma lookup_lt ds r i : lookup ds r = Some i -> i < length ds.
Proof.
  intros H. apply lookup_Some in H. destruct H as [d [H _]].
  apply nth_error_Some. congruence.
Qed.

Theorem resolve_all_None ds : resolve_all ds = None <-> has_dangling ds.
Proof.
  unfold resolve_all, has_dangling. rewrite resolve_each_oseq, oseq_None, in_map_iff.
  setoid_rewrite resolve_refs_oseq. setoid_rewrite oseq_None. setoid_rewrite in_map_iff. setoid_rewrite lookup_None.
  split; [intros (c & (r & H & Hr) & Hc) | intros (c & r & Hc & Hr & H)]; eauto 6.
Qed.

Lemma resolved_length ds rr : resolve_all ds = Some rr -> length rr = length ds.
Proof.
  unfold resolve_all. rewrite resolve_each_oseq. intros H. apply oseq_Some, (f_equal (@length _)) in H.
  now rewrite !map_length in H.
Qed.

Lemma resolved_row ds rr i d :
  resolve_all ds = Some rr -> nth_error ds i = Some d ->
  map (lookup ds) (doc_refs d) = map Some (children rr i).
Proof.
  unfold resolve_all. rewrite resolve_each_oseq. intros H Hd. apply oseq_Some in H.
  apply (map_nth_error (fun d => resolve_refs ds (doc_refs d))) in Hd.
  rewrite H in Hd. apply (nth_error_nth _ _ (Some [])) in Hd. rewrite map_nth in Hd.
  rewrite resolve_refs_oseq in Hd. symmetry in Hd. now apply oseq_Some.
Qed.

Lemma resolved_children ds rr i j :
  resolve_all ds = Some rr -> In j (children rr i) ->
  exists d, nth_error ds i = Some d /\
            exists r, In r (doc_refs d) /\ lookup ds r = Some j.
Proof.
  intros H Hj. destruct (nth_error ds i) as [d|] eqn:E.
  - exists d. split; [reflexivity|]. apply (in_map Some) in Hj.
    rewrite <- (resolved_row _ _ _ _ H E), in_map_iff in Hj. destruct Hj as [r [Hl Hr]]. eauto.
  - apply nth_error_None in E. rewrite <- (resolved_length _ _ H) in E.
    unfold children in Hj. now rewrite nth_overflow in Hj.
Qed.

Lemma resolved_refs ds rr i d r j :
  resolve_all ds = Some rr -> nth_error ds i = Some d -> In r (doc_refs d) -> lookup ds r = Some j ->
  In j (children rr i).
Proof.
  intros H Hd Hr Hl. apply (in_map (lookup ds)) in Hr.
  rewrite (resolved_row _ _ _ _ H Hd), Hl, in_map_iff in Hr. destruct Hr as [j' [E Hj]]. congruence.
Qed.

Lemma resolved_bound ds rr i j :
  resolve_all ds = Some rr -> In j (children rr i) -> i < length ds /\ j < length ds.
Proof.
  intros H Hj. destruct (resolved_children _ _ _ _ H Hj) as [d [Hd [r [_ Hl]]]]. split.
  - apply nth_error_Some. congruence.
  - eapply lookup_lt; eauto.
Qed.

Lemma load_Ok ds rr o1 : load ds = Ok (rr, o1) ->
  resolve_all ds = Some rr /\ o1 = topo rr (seq 0 (length ds)).
Proof.
  unfold load. destruct (resolve_all ds) as [x|]; [|discriminate].
  intros H. injection H as <- <-. auto.
Qed.

(* o is collection.rules after loading *)
Lemma resolved_topo ds rr : resolve_all ds = Some rr ->
  let o := topo rr (seq 0 (length ds)) in
  Permutation o (seq 0 (length ds)) /\ NoDup o /\ (acyclic rr -> topo_ok rr o /\ topo rr o = o).
Proof.
  intros Hr o.
  assert (P : Permutation o (seq 0 (length ds))) by apply topo_perm, seq_NoDup.
  assert (N : NoDup o) by (rewrite P; apply seq_NoDup).
  split; [exact P|]. split; [exact N|]. intros Hac.
  assert (T : topo_ok rr o).
  { apply topo_topo_ok; [|exact Hac]. intros i _ j Hj. apply in_seq.
    destruct (resolved_bound _ _ _ _ Hr Hj). lia. }
  split; [exact T | exact (topo_fixpoint rr o N T)].
Qed.

Theorem load_topo ds rr o1 :
  load ds = Ok (rr, o1) -> acyclic rr ->
  Permutation o1 (seq 0 (length ds)) /\ topo_ok rr o1 /\
  Permutation (topo rr o1) (seq 0 (length ds)) /\ topo_ok rr (topo rr o1).
Proof.
  intros H Hac. apply load_Ok in H. destruct H as [Hr ->].
  destruct (resolved_topo ds rr Hr) as (P & _ & H). destruct (H Hac) as [T ->]. auto.
Qed.

Lemma load_missing_ref ds : load ds = SigmaErr E_NotFound <-> has_dangling ds.
Proof. rewrite <- resolve_all_None. unfold load. destruct (resolve_all ds); split; congruence. Qed.

Lemma plain_no_children ds rr k d :
  resolve_all ds = Some rr -> nth_error ds k = Some d -> is_corr d = false -> children rr k = [].
Proof.
  intros H Hd Hc. pose proof (resolved_row _ _ _ _ H Hd) as E.
  unfold is_corr, doc_refs in *. destruct (d_body d); [|discriminate].
  now destruct (children rr k).
Qed.

Section Run.
  Variable Q : Type.
  Variable rplain : doc -> list Q.
  Variable rcorr : doc -> list (doc * list Q) -> list Q.
  Variable ds : list doc.
  Variable rr : list (list nat).

  Notation get := (get Q).
  Notation collect := (collect Q).
  Notation conv_rule := (conv_rule Q rplain rcorr).
  Notation run := (run Q rplain rcorr).

  Lemma get_cons res i q j : get ((i, q) :: res) j = if Nat.eqb i j then Some q else get res j.
  Proof. reflexivity. Qed.

  Lemma run_get_stable ac : forall ord res em res' em' i,
    run ac ds rr ord res em = Some (res', em') -> ~ In i ord -> get res' i = get res i.
  Proof.
    induction ord as [|k t IH]; simpl; intros res em res' em' i H Hn.
    - now injection H as <- _.
    - destruct (conv_rule ds rr res k) as [q|]; [|discriminate].
      apply not_in_cons in Hn. destruct Hn as [Hk Ht]. rewrite (IH _ _ _ _ i H Ht), get_cons.
      destruct (Nat.eqb_spec k i) as [E|_]; [now destruct Hk | reflexivity].
  Qed.

  Definition own (res : results Q) (i : nat) : list Q := match get res i with Some q => q | None => [] end.

  Lemma run_emitted : forall ord res em res' em',
    NoDup ord -> run false ds rr ord res em = Some (res', em') ->
    em' = em ++ flat_map (fun i => if output_flag ds rr i then map (pair i) (own res' i) else []) ord
    /\ forall i, In i ord -> get res' i <> None.
  Proof.
    induction ord as [|k t IH]; simpl; intros res em res' em' Hnd H.
    - injection H as <- <-. rewrite app_nil_r. split; [reflexivity | intros i []].
    - destruct (conv_rule ds rr res k) as [q|] eqn:Ec; [|discriminate].
      apply NoDup_cons_iff in Hnd. destruct Hnd as [Hk Ht].
      assert (Hg : get res' k = Some q).
      { rewrite (run_get_stable _ _ _ _ _ _ k H Hk), get_cons. now rewrite Nat.eqb_refl. }
      destruct (IH _ _ _ _ Ht H) as [E Hall]. split.
      + rewrite E. unfold own at 2. rewrite Hg. rewrite orb_false_r.
        destruct (output_flag ds rr k); [now rewrite <- app_assoc | reflexivity].
      + intros i [<-|Hi]; [congruence | now apply Hall].
  Qed.

  Definition entry (res : results Q) (j : nat) : option (doc * list Q) :=
    match nth_error ds j, get res j with Some d, Some q => Some (d, q) | _, _ => None end.

  Lemma collect_oseq res js : collect ds res js = oseq (map (entry res) js).
  Proof.
    induction js as [|j t IH]; simpl; [reflexivity|]. rewrite IH. unfold entry.
    now destruct (nth_error ds j), (get res j).
  Qed.

  Lemma entry_Some res j : entry res j <> None <-> j < length ds /\ get res j <> None.
  Proof.
    unfold entry. rewrite <- nth_error_Some.
    destruct (nth_error ds j); [destruct (get res j)|];
      (split; [intros H | intros [H1 H2]]); try (split; discriminate); congruence.
  Qed.

  Lemma collect_Some_iff res js :
    collect ds res js <> None <-> forall j, In j js -> j < length ds /\ get res j <> None.
  Proof.
    rewrite collect_oseq. split.
    - intros H j Hj. apply entry_Some. intros E. exact (H (oseq_map_None _ _ j Hj E)).
    - intros H E. apply oseq_None, in_map_iff in E. destruct E as [j [E Hj]].
      exact (proj2 (entry_Some res j) (H j Hj) E).
  Qed.

  Lemma conv_rule_Some_iff res i :
    resolve_all ds = Some rr ->
    conv_rule ds rr res i <> None <->
    i < length ds /\ forall j, In j (children rr i) -> get res j <> None.
  Proof.
    intros Hr. unfold RefOrder.conv_rule. rewrite <- nth_error_Some.
    destruct (nth_error ds i) as [d|] eqn:Ed; [|split; [congruence | intros [H _]; congruence]].
    destruct (is_corr d) eqn:Ec.
    - transitivity (collect ds res (children rr i) <> None).
      + destruct (collect ds res (children rr i)); split; congruence.
      + rewrite collect_Some_iff. split.
        * intros H. split; [discriminate|]. intros j Hj. now apply H.
        * intros [_ H] j Hj. split; [|now apply H]. now destruct (resolved_bound _ _ _ _ Hr Hj).
    - rewrite (plain_no_children _ _ _ _ Hr Ed Ec). split; [|discriminate].
      intros _. split; [discriminate | intros j []].
  Qed.

  Lemma get_cons_Some res k q j : get ((k, q) :: res) j <> None <-> k = j \/ get res j <> None.
  Proof.
    rewrite get_cons. destruct (Nat.eqb_spec k j) as [E|E]; [|tauto].
    split; [now left | discriminate].
  Qed.

  Lemma run_Some_from ac : resolve_all ds = Some rr -> forall ord res em,
    run ac ds rr ord res em <> None <->
    (forall i, In i ord -> i < length ds) /\
    forall l1 i l2, ord = l1 ++ i :: l2 ->
      forall j, In j (children rr i) -> In j l1 \/ get res j <> None.
  Proof.
    intros Hr. induction ord as [|k t IH]; intros res em; simpl.
    - split; [|discriminate]. intros _. split; [intros i [] | intros [|] ? ? E; discriminate E].
    - destruct (conv_rule ds rr res k) as [q|] eqn:Ec.
      + assert (Hk : k < length ds /\ forall j, In j (children rr k) -> get res j <> None)
          by (apply (conv_rule_Some_iff _ _ Hr); congruence).
        rewrite IH. split; intros [H1 H2]; split.
        * intros i [<-|Hi]; [apply Hk | auto].
        * intros [|x l1] i l2 E j Hj; injection E as <- ->; [right; now apply Hk|].
          destruct (H2 l1 i l2 eq_refl j Hj) as [H|H]; [left; now right|].
          apply get_cons_Some in H. destruct H as [<-|H]; [left; now left | now right].
        * intros i Hi. apply H1. now right.
        * intros l1 i l2 -> j Hj. destruct (H2 (k :: l1) i l2 eq_refl j Hj) as [[<-|H]|H]; auto;
            right; apply get_cons_Some; auto.
      + split; [congruence|]. intros [H1 H2] _. apply (proj2 (conv_rule_Some_iff res k Hr)); [|exact Ec].
        split; [apply H1; now left|]. intros j Hj. now destruct (H2 [] k t eq_refl j Hj).
  Qed.

  Theorem run_Some_iff ac ord :
    resolve_all ds = Some rr ->
    run ac ds rr ord [] [] <> None <-> (forall i, In i ord -> i < length ds) /\ topo_ok rr ord.
  Proof.
    intros Hr. rewrite (run_Some_from _ Hr). split; intros [H1 H2]; (split; [exact H1|]); intros l1 i l2 E j Hj.
    - now destruct (H2 l1 i l2 E j Hj).
    - left. exact (H2 l1 i l2 E j Hj).
  Qed.
End Run.

Lemma In_combine_nth_error {A B} (l : list A) (l' : list B) x y :
  In (x, y) (combine l l') <-> exists k, nth_error l k = Some x /\ nth_error l' k = Some y.
Proof.
  revert l'. induction l as [|a l IH]; intros [|b l']; simpl;
    try (split; [intros [] | intros [[|k] [? ?]]; discriminate]).
  rewrite IH. split.
  - intros [H|[k Hk]]; [inversion H; subst; exists 0; auto | exists (S k); auto].
  - intros [[|k] [H1 H2]]; simpl in *; [left; congruence | right; eauto].
Qed.

(* the test both output_flag and emitsD make of a correlation rule c *)
Lemma suppresses_iff c (b : bool) :
  is_corr c && negb (doc_generate c) && b = true <-> is_corr c = true /\ doc_generate c = false /\ b = true.
Proof. rewrite !andb_true_iff, negb_true_iff. tauto. Qed.

Lemma output_flag_false ds rr i :
  output_flag ds rr i = false <-> exists k, referrer ds rr k i false.
Proof.
  unfold output_flag. rewrite negb_false_iff, existsb_exists. split.
  - intros [[d js] [Hin H]]. apply suppresses_iff in H. destruct H as (Hc & Hg & Hi). apply memn_In in Hi.
    apply In_combine_nth_error in Hin. destruct Hin as [k [Hd Hjs]].
    exists k, d. rewrite (nth_error_nth _ _ _ Hjs). auto.
  - intros [k [d [Hd [Hc [Hg Hi]]]]].
    destruct (nth_error rr k) as [js|] eqn:E.
    + exists (d, js). split; [apply In_combine_nth_error; eauto|]. apply suppresses_iff.
      rewrite (nth_error_nth _ _ _ E) in Hi. apply memn_In in Hi. auto.
    + apply nth_error_None in E. rewrite nth_overflow in Hi by assumption. contradiction.
Qed.

Lemma in_perm_seq o n i : Permutation o (seq 0 n) -> In i o <-> i < n.
Proof.
  intros P. split; intros H.
  - apply (Permutation_in _ P), in_seq in H. apply H.
  - apply (Permutation_in _ (Permutation_sym P)), in_seq. split; [apply Nat.le_0_l | exact H].
Qed.

Definition lookupD (ds : list doc) (r : ref) : doc :=
  match lookup ds r with Some i => nth i ds no_doc | None => no_doc end.

Definition kstr (r : ref) : str := match r with RName n => n | RId n => n end.
Definition key1 (r : ref) (d : doc) : list str :=
  match r with
  | RName _ => match d_name d with Some n => [n] | None => [] end
  | RId _ => match d_id d with Some n => [n] | None => [] end
  end.
(* names ds or ids ds, whichever r is looked up in *)
Definition keyl (r : ref) (ds : list doc) : list str := flat_map (key1 r) ds.

Lemma unique_keys_keyl ds r : unique_keys ds -> NoDup (keyl r ds).
Proof. intros [H1 H2]. destruct r; assumption. Qed.

Lemma matches_key1 r d : matches r d = true -> key1 r d = [kstr r].
Proof.
  destruct r as [u|n]; simpl; [destruct (d_id d) as [v|] | destruct (d_name d) as [v|]];
    try discriminate; intros H; apply str_eqb_eq in H; now subst.
Qed.

Lemma matches_keyl r d ds : In d ds -> matches r d = true -> In (kstr r) (keyl r ds).
Proof. intros Hin Hm. apply in_flat_map. exists d. rewrite (matches_key1 _ _ Hm). simpl. auto. Qed.

Lemma NoDup_app_r {A} (a b : list A) : NoDup (a ++ b) -> NoDup b.
Proof. induction a as [|x a IH]; simpl; [auto|]. intros H. inversion H; auto. Qed.

Lemma lookup_unique ds r i d :
  unique_keys ds -> nth_error ds i = Some d -> matches r d = true -> lookup ds r = Some i.
Proof.
  intros Hu. pose proof (unique_keys_keyl ds r Hu) as Hnd. clear Hu. revert i.
  induction ds as [|d0 t IH]; intros i Hd Hm; [destruct i; discriminate|].
  cbn [keyl flat_map] in Hnd. simpl. destruct i as [|i]; simpl in Hd.
  - injection Hd as ->. rewrite Hm. destruct (lookup t r) as [j|] eqn:E; [|reflexivity].
    destruct (lookup_Some _ _ _ E) as [d' [Hd' Hm']].
    rewrite (matches_key1 _ _ Hm) in Hnd. inversion Hnd as [|? ? Hn _]. destruct Hn.
    eapply matches_keyl; eauto using nth_error_In.
  - now rewrite (IH (NoDup_app_r _ _ Hnd) i Hd Hm).
Qed.

Lemma unique_keys_perm p ds : Permutation p ds -> unique_keys ds -> unique_keys p.
Proof.
  intros P [H1 H2]. split; [unfold names | unfold ids]; now rewrite (Permutation_flat_map _ P).
Qed.

Lemma lookupD_perm p ds r i :
  Permutation p ds -> unique_keys ds -> lookup p r = Some i -> nth_error p i = Some (lookupD ds r).
Proof.
  intros P Hu Hi. destruct (lookup_Some _ _ _ Hi) as [d [Hd Hm]]. rewrite Hd.
  destruct (In_nth_error ds d) as [k Hk]; [rewrite <- P; eauto using nth_error_In|].
  unfold lookupD. now rewrite (lookup_unique _ _ _ _ Hu Hk Hm), (nth_error_nth _ _ _ Hk).
Qed.

Lemma existsb_perm {A} (f : A -> bool) p l : Permutation p l -> existsb f p = existsb f l.
Proof.
  induction 1 as [|x p l _ IH|x y l|p l m _ IH1 _ IH2]; simpl; [reflexivity | now rewrite IH | | congruence].
  now rewrite !orb_assoc, (orb_comm (f y)).
Qed.

(* does a rule emit, from the documents alone *)
Definition emitsD (ds : list doc) (d : doc) : bool :=
  negb (existsb (fun c => is_corr c && negb (doc_generate c) && existsb (fun r => matches r d) (doc_refs c)) ds).

Lemma emitsD_perm p ds d : Permutation p ds -> emitsD p d = emitsD ds d.
Proof. intros P. unfold emitsD. now rewrite (existsb_perm _ _ _ P). Qed.

Lemma output_flag_emitsD ds rr i d :
  resolve_all ds = Some rr -> unique_keys ds -> nth_error ds i = Some d ->
  output_flag ds rr i = emitsD ds d.
Proof.
  intros Hr Hu Hd.
  enough (H : output_flag ds rr i = false <-> emitsD ds d = false).
  { destruct (emitsD ds d); [|now apply H]. apply not_false_iff_true. intros E. now apply H in E. }
  rewrite output_flag_false. unfold emitsD. rewrite negb_false_iff, existsb_exists. split.
  - intros [k [c [Hc [Hcorr [Hg Hi]]]]]. exists c. split; [eapply nth_error_In; eauto|].
    apply suppresses_iff. repeat split; auto. apply existsb_exists.
    destruct (resolved_children _ _ _ _ Hr Hi) as [c' [Hc' [r [Hrin Hl]]]].
    replace c' with c in * by congruence. exists r. split; [assumption|].
    destruct (lookup_Some _ _ _ Hl) as [t [Ht Hm]]. congruence.
  - intros [c [Hcin H]]. apply suppresses_iff in H. destruct H as (H1 & H2 & H).
    apply existsb_exists in H. destruct H as [r [Hrin Hm]].
    apply In_nth_error in Hcin. destruct Hcin as [k Hk].
    exists k, c. repeat split; auto.
    apply (resolved_refs _ _ _ _ r _ Hr Hk Hrin). now apply (lookup_unique _ _ _ d).
Qed.

Lemma flat_map_seq_nth {B} (g : doc -> list B) ds :
  flat_map (fun i => g (nth i ds no_doc)) (seq 0 (length ds)) = flat_map g ds.
Proof.
  induction ds as [|d t IH]; [reflexivity|].
  cbn [length seq flat_map]. cbn [nth]. f_equal.
  rewrite <- seq_shift, flat_map_map. exact IH.
Qed.

Lemma has_dangling_perm p ds : Permutation p ds -> has_dangling p -> has_dangling ds.
Proof.
  intros P [c [r [Hc [Hr Hd]]]]. exists c, r. rewrite P in Hc. repeat split; auto.
  intros d Hin. apply Hd. now rewrite P.
Qed.

Lemma clos_trans_map {A B} (R : A -> A -> Prop) (R' : B -> B -> Prop) (g : A -> B) :
  (forall x y, R x y -> R' (g x) (g y)) ->
  forall x y, clos_trans A R x y -> clos_trans B R' (g x) (g y).
Proof.
  intros H x y C. induction C as [x y Hxy | x y z _ IH1 _ IH2].
  - apply t_step. auto.
  - eapply t_trans; eauto.
Qed.

Lemma acyclic_docs_index ds rr : resolve_all ds = Some rr -> acyclic_docs ds -> acyclic rr.
Proof.
  intros Hr Hac i C. apply (Hac (nth i ds no_doc)).
  revert C. apply (clos_trans_map (refers rr) (refers_doc ds) (fun x => nth x ds no_doc)).
  intros c r Hcr. unfold refers in Hcr.
  destruct (resolved_children _ _ _ _ Hr Hcr) as [d [Hd [x [Hx Hl]]]].
  destruct (lookup_Some _ _ _ Hl) as [t [Ht Hm]].
  rewrite (nth_error_nth _ _ no_doc Hd), (nth_error_nth _ _ no_doc Ht).
  repeat split; eauto using nth_error_In.
Qed.

(* unique keys are needed: refers_doc relates a rule to every document that carries the key, rr to the
   last of them only *)
Lemma refers_doc_index ds rr : resolve_all ds = Some rr -> unique_keys ds ->
  forall c d, clos_trans doc (refers_doc ds) c d ->
  forall i j, nth_error ds i = Some c -> nth_error ds j = Some d -> clos_trans nat (refers rr) i j.
Proof.
  intros Hr Hu. induction 1 as [c d [_ [_ [r [Hrin Hm]]]] | c d e _ IH1 C2 IH2]; intros i j Hi Hj.
  - apply t_step. apply (resolved_refs _ _ _ _ r _ Hr Hi Hrin). now apply (lookup_unique _ _ _ d).
  - destruct (clos_trans_first _ _ _ C2) as [z [Hd _]].
    apply In_nth_error in Hd. destruct Hd as [k Hk]. eapply t_trans; eauto.
Qed.

Lemma acyclic_index_docs ds rr : resolve_all ds = Some rr -> unique_keys ds -> acyclic rr -> acyclic_docs ds.
Proof.
  intros Hr Hu Hac c C. destruct (clos_trans_first _ _ _ C) as [z [Hc _]].
  apply In_nth_error in Hc. destruct Hc as [i Hi].
  exact (Hac i (refers_doc_index ds rr Hr Hu _ _ C _ _ Hi Hi)).
Qed.

Lemma acyclic_docs_perm p ds : Permutation p ds -> acyclic_docs ds -> acyclic_docs p.
Proof.
  intros P Hac d C. apply (Hac d). revert C.
  apply (clos_trans_map (refers_doc p) (refers_doc ds) (fun x => x)).
  intros x y [H1 [H2 H3]]. rewrite P in H1, H2. repeat split; auto.
Qed.

Section Backend.
  Variable Q : Type.
  Variable rplain : doc -> list Q.
  Variable rcorr : doc -> list (doc * list Q) -> list Q.
  Notation pipeline := (pipeline Q rplain rcorr).
  Notation run := (run Q rplain rcorr).

  Lemma pipeline_eq ds :
    pipeline ds =
    match resolve_all ds with
    | None => SigmaErr E_NotFound
    | Some rr =>
        let o1 := topo rr (seq 0 (length ds)) in
        match run false ds rr (topo rr o1) [] [] with
        | Some (res, em) =>
            Ok {| c_order_load := o1; c_order_conv := topo rr o1; c_results := res; c_emitted := em |}
        | None => SigmaErr E_Conversion
        end
    end.
  Proof. unfold RefOrder.pipeline, load. now destruct (resolve_all ds). Qed.

  Lemma pipeline_Ok ds rr c : resolve_all ds = Some rr -> pipeline ds = Ok c ->
    c_order_load c = topo rr (seq 0 (length ds)) /\
    c_order_conv c = topo rr (c_order_load c) /\
    Permutation (c_order_conv c) (seq 0 (length ds)) /\ NoDup (c_order_conv c) /\
    run false ds rr (c_order_conv c) [] [] = Some (c_results c, c_emitted c).
  Proof.
    intros Hr. rewrite pipeline_eq, Hr. cbn zeta.
    destruct (run false ds rr _ [] []) as [[res em]|] eqn:Er; [|discriminate].
    intros H. injection H as <-. cbn.
    destruct (resolved_topo ds rr Hr) as (P & N & _). assert (P2 := topo_perm rr _ N).
    repeat split; auto; rewrite P2; assumption.
  Qed.

  Lemma pipeline_Ok_resolved ds c : pipeline ds = Ok c -> exists rr, resolve_all ds = Some rr.
  Proof. rewrite pipeline_eq. destruct (resolve_all ds); [eauto | discriminate]. Qed.

  Theorem pipeline_missing_ref ds : pipeline ds = SigmaErr E_NotFound <-> has_dangling ds.
  Proof.
    rewrite <- resolve_all_None, pipeline_eq. destruct (resolve_all ds) as [rr|]; [|tauto]. cbn zeta.
    destruct (run false ds rr _ [] []) as [[res em]|]; split; discriminate.
  Qed.

  Lemma pipeline_cases ds rr : resolve_all ds = Some rr ->
    (exists c, pipeline ds = Ok c) \/ pipeline ds = SigmaErr E_Conversion.
  Proof.
    intros Hr. rewrite pipeline_eq, Hr. cbn zeta.
    destruct (run false ds rr _ [] []) as [[res em]|]; eauto.
  Qed.

  Theorem pipeline_total ds rr :
    resolve_all ds = Some rr -> acyclic rr -> exists c, pipeline ds = Ok c.
  Proof.
    intros Hr Hac. destruct (resolved_topo ds rr Hr) as (P & _ & HT). destruct (HT Hac) as [T F].
    rewrite pipeline_eq, Hr. cbn zeta. rewrite F.
    destruct (run false ds rr _ [] []) as [[res em]|] eqn:E; [eauto|].
    exfalso. revert E. apply (run_Some_iff Q rplain rcorr ds rr _ _ Hr). split; [|exact T].
    intros i. apply (in_perm_seq _ _ _ P).
  Qed.

  Theorem pipeline_flags ds c rr i :
    pipeline ds = Ok c -> resolve_all ds = Some rr -> i < length ds ->
    get Q (c_results c) i <> None /\
    ((exists k, referrer ds rr k i false) -> forall q, ~ In (i, q) (c_emitted c)) /\
    ((forall k, ~ referrer ds rr k i false) ->
       forall q, In q (own Q (c_results c) i) -> In (i, q) (c_emitted c)).
  Proof.
    intros H Hr Hi. destruct (pipeline_Ok _ _ _ Hr H) as (_ & _ & P & N & Hrun).
    destruct (run_emitted Q rplain rcorr ds rr _ _ _ _ _ N Hrun) as [E Hall].
    assert (Hio : In i (c_order_conv c)) by apply (in_perm_seq _ _ _ P), Hi.
    simpl in E. rewrite E. split; [now apply Hall|]. split.
    - intros Hk q Hin. apply output_flag_false in Hk. apply in_flat_map in Hin. destruct Hin as [k [_ Hin]].
      destruct (output_flag ds rr k) eqn:Ek; [|contradiction].
      apply in_map_iff in Hin. destruct Hin as [q' [Hq _]]. congruence.
    - intros Hk q Hq. apply in_flat_map. exists i. split; [assumption|].
      destruct (output_flag ds rr i) eqn:Ek; [now apply in_map|].
      apply output_flag_false in Ek. destruct Ek as [k Hk']. now destruct (Hk k).
  Qed.

  Theorem pipeline_Ok_acyclic ds c rr :
    pipeline ds = Ok c -> resolve_all ds = Some rr -> acyclic rr.
  Proof.
    intros H Hr. destruct (pipeline_Ok _ _ _ Hr H) as (_ & _ & P & N & Hrun).
    apply (topo_ok_acyclic rr (c_order_conv c)); [|exact N|].
    - apply (run_Some_iff Q rplain rcorr ds rr false _ Hr). congruence.
    - intros x r Hxr. apply (in_perm_seq _ _ _ P). now destruct (resolved_bound _ _ _ _ Hr Hxr).
  Qed.

  Theorem order_conv_eq_load ds c rr :
    pipeline ds = Ok c -> resolve_all ds = Some rr -> c_order_conv c = c_order_load c.
  Proof.
    intros H Hr. destruct (pipeline_Ok _ _ _ Hr H) as (E1 & E2 & _). rewrite E2, E1.
    apply (resolved_topo ds rr Hr), (pipeline_Ok_acyclic ds c rr H Hr).
  Qed.

  (* Proof device for the independence of the document order: the denotation of a rule, computed from
     the documents alone (references looked up by key, no positions, no order) and shown to be what the
     conversion stores for the rule.  The documents enter through the table of their keys only: L r is
     the document r resolves to. *)
  Definition den_step (den : doc -> list Q) (L : ref -> doc) (d : doc) : list Q :=
    if is_corr d then rcorr d (map (fun r => (L r, den (L r))) (doc_refs d)) else rplain d.

  Fixpoint denD (f : nat) (L : ref -> doc) (d : doc) : list Q :=
    match f with
    | 0 => []
    | S f' => den_step (denD f' L) L d
    end.

  Notation get := (get Q).

  Section RunDen.
    Variable ds : list doc.
    Variable rr : list (list nat).
    Variable L : ref -> doc.
    Hypothesis Hr : resolve_all ds = Some rr.
    Hypothesis HL : forall r j, lookup ds r = Some j -> nth_error ds j = Some (L r).

    (* "for every fuel from k on": a larger k only weakens the statement, which is how the conversion
       loop keeps it while the fuel grows *)
    Definition stored_den (k : nat) (res : results Q) : Prop :=
      forall j qs, get res j = Some qs ->
        exists d, nth_error ds j = Some d /\ forall f, k <= f -> denD f L d = qs.

    Lemma collect_den k res f : stored_den k res -> k <= f -> forall rs js subs,
      map (lookup ds) rs = map Some js -> collect Q ds res js = Some subs ->
      map (fun r => (L r, denD f L (L r))) rs = subs.
    Proof.
      intros Hsd Hf. induction rs as [|r rs IH]; intros [|j js] subs E Hc; try discriminate; [now injection Hc|].
      injection E as El E. simpl in Hc. rewrite (HL _ _ El) in Hc.
      destruct (get res j) as [q|] eqn:Eg; [|discriminate].
      destruct (collect Q ds res js) as [subs'|] eqn:Ec; [|discriminate]. injection Hc as <-.
      destruct (Hsd _ _ Eg) as [d [Hd Hden]]. rewrite (HL _ _ El) in Hd. injection Hd as <-.
      simpl. now rewrite (Hden f Hf), (IH _ _ E Ec).
    Qed.

    Lemma conv_rule_den k res i q : stored_den k res ->
      conv_rule Q rplain rcorr ds rr res i = Some q ->
      exists d, nth_error ds i = Some d /\ forall f, S k <= f -> denD f L d = q.
    Proof.
      intros Hsd. unfold conv_rule. destruct (nth_error ds i) as [d|] eqn:Ed; [|discriminate].
      intros H. exists d. split; [reflexivity|]. intros [|f] Hf; [inversion Hf|]. apply le_S_n in Hf.
      simpl. unfold den_step. destruct (is_corr d); [|now injection H].
      destruct (collect Q ds res (children rr i)) as [subs|] eqn:E; [|discriminate].
      rewrite (collect_den k res f Hsd Hf _ _ _ (resolved_row _ _ _ _ Hr Ed) E). now injection H.
    Qed.

    (* one more result, one more unit of fuel *)
    Lemma run_stored_den ac : forall ord k res em res' em',
      run ac ds rr ord res em = Some (res', em') -> stored_den k res -> stored_den (length ord + k) res'.
    Proof.
      induction ord as [|i t IH]; simpl; intros k res em res' em' H Hsd.
      - now injection H as <- _.
      - destruct (conv_rule Q rplain rcorr ds rr res i) as [q|] eqn:Ec; [|discriminate].
        rewrite <- Nat.add_succ_r. eapply IH; [exact H|].
        intros j qs. rewrite get_cons. destruct (Nat.eqb_spec i j) as [<-|_].
        + intros Hq. injection Hq as <-. now apply (conv_rule_den k res).
        + intros Hq. destruct (Hsd _ _ Hq) as [d [Hd Hden]]. exists d. split; [assumption|].
          intros f Hf. apply Hden, Nat.lt_le_incl, Hf.
    Qed.
  End RunDen.

  Definition contribution (ds : list doc) (d : doc) : list (doc * Q) :=
    if emitsD ds d then map (pair d) (denD (length ds) (lookupD ds) d) else [].

  Lemma pipeline_emitted_den p ds c :
    Permutation p ds -> unique_keys ds -> pipeline p = Ok c ->
    Permutation (by_doc p (c_emitted c)) (flat_map (contribution ds) ds).
  Proof.
    intros Pm Hu H. destruct (pipeline_Ok_resolved _ _ H) as [rr Hr].
    destruct (pipeline_Ok _ _ _ Hr H) as (_ & _ & P & N & Hrun).
    destruct (run_emitted Q rplain rcorr p rr _ _ _ _ _ N Hrun) as [E Hall]. simpl in E.
    assert (Hsd : stored_den p (lookupD ds) (length (c_order_conv c) + 0) (c_results c)).
    { eapply run_stored_den; [exact Hr | intros r j; now apply lookupD_perm | exact Hrun |]. intros j qs Hq. discriminate. }
    rewrite Nat.add_0_r, (Permutation_length P), seq_length, (Permutation_length Pm) in Hsd.
    (* both sides as a flat_map over the positions in conversion order, then position by position *)
    rewrite <- (Permutation_flat_map _ Pm), E, <- (flat_map_seq_nth (contribution ds)), <- (Permutation_flat_map _ P).
    unfold by_doc. rewrite !flat_map_concat_map, concat_map, map_map.
    rewrite (map_ext_in _ (fun i => contribution ds (nth i p no_doc))); [reflexivity|].
    intros i Hi. specialize (Hall i Hi). unfold own.
    destruct (get (c_results c) i) as [qs|] eqn:Eg; [|congruence].
    destruct (Hsd _ _ Eg) as [d [Hd Hden]].
    rewrite (nth_error_nth _ _ no_doc Hd). unfold contribution.
    rewrite <- (emitsD_perm _ _ _ Pm), <- (output_flag_emitsD _ _ _ _ Hr (unique_keys_perm _ _ Pm Hu) Hd), (Hden _ (le_n _)).
    destruct (output_flag p rr i); [|reflexivity].
    rewrite map_map. cbn [fst snd]. now rewrite (nth_error_nth _ _ no_doc Hd).
  Qed.

  Theorem emitted_order_independent p ds c' c :
    Permutation p ds -> unique_keys ds ->
    pipeline p = Ok c' -> pipeline ds = Ok c ->
    Permutation (by_doc p (c_emitted c')) (by_doc ds (c_emitted c)).
  Proof.
    intros P Hu Hp Hd.
    now rewrite (pipeline_emitted_den _ _ _ P Hu Hp), (pipeline_emitted_den _ _ _ (Permutation_refl ds) Hu Hd).
  Qed.

  Lemma converts_perm p ds :
    Permutation p ds -> unique_keys p -> (exists c, pipeline p = Ok c) -> exists c, pipeline ds = Ok c.
  Proof.
    intros P Hu [c' Hc']. destruct (pipeline_Ok_resolved _ _ Hc') as [rr' Hr'].
    destruct (resolve_all ds) as [rr|] eqn:Hr.
    - (* conversion succeeds iff the documents refer to each other without a cycle, which no order changes *)
      apply (pipeline_total ds rr Hr), (acyclic_docs_index _ _ Hr), (acyclic_docs_perm ds p).
      + now symmetry.
      + exact (acyclic_index_docs p rr' Hr' Hu (pipeline_Ok_acyclic p c' rr' Hc' Hr')).
    - apply resolve_all_None, (has_dangling_perm ds p), resolve_all_None in Hr; [congruence | now symmetry].
  Qed.

  Theorem order_independent_full p ds :
    Permutation p ds -> unique_keys ds ->
    same_outcome p ds (pipeline p) (pipeline ds).
  Proof.
    intros P Hu.
    assert (Hup : unique_keys p) by (eapply unique_keys_perm; eauto).
    unfold same_outcome.
    destruct (resolve_all ds) as [rr|] eqn:Er.
    - destruct (resolve_all p) as [rr'|] eqn:Er'.
      + destruct (pipeline_cases ds rr Er) as [[c Hc]|Hc],
                 (pipeline_cases p rr' Er') as [[c' Hc']|Hc'].
        * rewrite Hc, Hc'. eapply emitted_order_independent; eauto.
        * destruct (converts_perm ds p) as [c' Hc'']; eauto; [now symmetry | congruence].
        * destruct (converts_perm p ds) as [c Hc'']; eauto. congruence.
        * now rewrite Hc, Hc'.
      + apply resolve_all_None, (has_dangling_perm _ _ P), resolve_all_None in Er'. congruence.
    - apply resolve_all_None in Er.
      assert (Hp : has_dangling p) by (eapply has_dangling_perm; [symmetry; exact P | exact Er]).
      apply pipeline_missing_ref in Er, Hp. now rewrite Er, Hp.
  Qed.
End Backend.

Theorem order_independent Q rplain rcorr p ds :
  Permutation p ds -> unique_keys ds -> acyclic_docs ds ->
  same_outcome p ds (pipeline Q rplain rcorr p) (pipeline Q rplain rcorr ds).
Proof. intros P Hu _. now apply order_independent_full. Qed.

Lemma by_title_by_doc {Q} ds (em : list (nat * Q)) :
  by_title ds em = map (fun dq => (d_title (fst dq), snd dq)) (by_doc ds em).
Proof. unfold by_title, by_doc. rewrite map_map. reflexivity. Qed.

Theorem order_independent_by_title Q rplain rcorr p ds c' c :
  Permutation p ds -> unique_keys ds ->
  pipeline Q rplain rcorr p = Ok c' -> pipeline Q rplain rcorr ds = Ok c ->
  Permutation (by_title p (c_emitted c')) (by_title ds (c_emitted c)).
Proof.
  intros P Hu Hp Hd. rewrite !by_title_by_doc. apply Permutation_map.
  eapply emitted_order_independent; eauto.
Qed.

Lemma nodupb_NoDup l : nodupb l = true <-> NoDup l.
Proof. exact (snodupb_spec l). Qed.

Lemma unique_keysb_spec ds : unique_keysb ds = true <-> unique_keys ds.
Proof. unfold unique_keysb, unique_keys. now rewrite andb_true_iff, !nodupb_NoDup. Qed.

Definition mkP (t : N) : doc :=
  {| d_title := [t]; d_name := Some [t]; d_id := None; d_body := Plain [[t]] |}.
Definition mkC (t : N) (refs : list N) : doc :=
  {| d_title := [t]; d_name := Some [t]; d_id := None;
     d_body := Corr CTemporal (map (fun r => RName [r]) refs) false [117%N] [53%N; 104%N] |}.
(* a, b, u plain; c -> [a, b]; d -> [c, u]   (c1, c2 of DESIGN.md) *)
Definition wit_docs : list doc :=
  [mkP 97; mkP 98; mkP 117; mkC 99 [97%N; 98%N]; mkC 100 [99%N; 117%N]].
Definition wit_order : list doc := rev wit_docs.       (* d, c, u, b, a *)

(* perms l lists the arrangements of l, one for each permutation of its positions *)
Fixpoint insert_all {A} (x : A) (l : list A) : list (list A) :=
  match l with [] => [[x]] | y :: t => (x :: l) :: map (cons y) (insert_all x t) end.
Fixpoint perms {A} (l : list A) : list (list A) :=
  match l with [] => [[]] | x :: t => flat_map (insert_all x) (perms t) end.
Definition is_ok {A} (o : outcome A) : bool := match o with Ok _ => true | _ => false end.

Lemma sorted_refuted :
  exists ds p, Permutation p ds
    /\ is_ok (pipeline_sorted str tq_plain tq_corr ds) = true
    /\ pipeline_sorted str tq_plain tq_corr p = SigmaErr E_Conversion
    /\ is_ok (pipeline str tq_plain tq_corr p) = true.
Proof.
  exists wit_docs, wit_order. split; [symmetry; apply Permutation_rev|].
  (* not `repeat split`: on an equation it applies eq_refl and evaluates by unification *)
  split; [|split]; vm_compute; reflexivity.
Qed.

Lemma sorted_fails_66_of_120 :
  length (perms wit_docs) = 120 /\
  length (filter (fun p => negb (is_ok (pipeline_sorted str tq_plain tq_corr p))) (perms wit_docs)) = 66 /\
  forallb (fun p => is_ok (pipeline str tq_plain tq_corr p)) (perms wit_docs) = true.
Proof. split; [|split]; vm_compute; reflexivity. Qed.

(* duplicate names: the last document wins, so the order of the documents decides what a
   correlation rule refers to *)
Definition dup_docs : list doc :=
  [ {| d_title := [97%N]; d_name := Some [120%N]; d_id := None; d_body := Plain [[97%N]] |};
    {| d_title := [98%N]; d_name := Some [120%N]; d_id := None; d_body := Plain [[98%N]] |};
    {| d_title := [99%N]; d_name := Some [99%N]; d_id := None;
       d_body := Corr (CEventCount [49%N]) [RName [120%N]] false [117%N] [51%N; 104%N] |} ].
Definition dup_order : list doc :=
  match dup_docs with [a; b; c] => [b; a; c] | _ => [] end.
Definition emitted_queries (o : outcome (converted str)) : list str :=
  match o with Ok c => map snd (c_emitted c) | _ => [] end.

Lemma duplicate_key_refuted :
  exists ds p q, Permutation p ds
    /\ In q (emitted_queries (pipeline str tq_plain tq_corr ds))
    /\ ~ In q (emitted_queries (pipeline str tq_plain tq_corr p)).
Proof.
  exists dup_docs, dup_order.
  eexists. split; [|split].
  - unfold dup_order, dup_docs. apply perm_swap.
  - (* the query of rule a: emitted while the correlation rule resolves to b, suppressed once it resolves to a *)
    vm_compute. left. reflexivity.
  - rewrite <- existsb_str_In. vm_compute. discriminate.
Qed.

Lemma wit_premises : unique_keys wit_docs /\ acyclic_docs wit_docs.
Proof.
  assert (Hu : unique_keys wit_docs) by (apply unique_keysb_spec; reflexivity).
  split; [exact Hu|].
  assert (Hr : resolve_all wit_docs = Some [[]; []; []; [0; 1]; [3; 2]]) by reflexivity.
  (* the witness set converts, so it has no cycle *)
  assert (E : is_ok (pipeline str tq_plain tq_corr wit_docs) = true) by (vm_compute; reflexivity).
  destruct (pipeline str tq_plain tq_corr wit_docs) as [c|e|e] eqn:Ep; try discriminate E.
  exact (acyclic_index_docs _ _ Hr Hu (pipeline_Ok_acyclic _ _ _ _ c _ Ep Hr)).
Qed.
