(* Facts about the reference meaning (Spec/Ref.v): the numbering of reference predicates is faithful *)
From Coq Require Import NArith List Bool Arith Lia.
From PS Require Import Base.Chars Spec.Query Spec.Target Spec.Ref Proofs.AtomP.
Import ListNotations.
Local Open Scope nat_scope.

Section RcInd.
  Variable P : rc -> Prop.
  Hypothesis HA : forall k, P (RA k).
  Hypothesis HN : forall c, P c -> P (RN c).
  Hypothesis HB : forall o l, Forall P l -> P (RB o l).
  Fixpoint rc_ind' (c : rc) : P c :=
    match c with
    | RA k => HA k
    | RN a => HN a (rc_ind' a)
    | RB o l => HB o l ((fix go (l : list rc) : Forall P l :=
                           match l with [] => Forall_nil P | x :: r => Forall_cons x (rc_ind' x) (go r) end) l)
    end.
End RcInd.

Theorem number_den ks asg c : den asg (number ks c) = rden (fun k => asg (idx ks k)) c.
Proof.
  induction c as [k | a IH | o l IH] using rc_ind'; cbn [number den rden].
  - reflexivity.
  - rewrite IH. reflexivity.
  - destruct o; induction IH as [| x r Hx _ IHr]; cbn [map forallb existsb]; rewrite ?Hx, ?IHr; reflexivity.
Qed.

Lemma akey_eqb_refl k : akey_eqb k k = true.
Proof.
  destruct k; cbn [akey_eqb];
    rewrite ?str_eqb_refl, ?items_eqb_refl, ?eqb_reflx, ?cmpop_eqb_refl; reflexivity.
Qed.

Fixpoint keys_in (c : rc) : list akey :=
  match c with
  | RA k => [k]
  | RN a => keys_in a
  | RB _ l => flat_map keys_in l
  end.

Lemma rden_ext v1 v2 c : (forall k, In k (keys_in c) -> v1 k = v2 k) -> rden v1 c = rden v2 c.
Proof.
  induction c as [k | a IH | o l IH] using rc_ind'; cbn [keys_in rden]; intros H.
  - apply H. left. reflexivity.
  - rewrite IH; auto.
  - destruct o; induction IH as [| x r Hx _ IHr]; cbn [forallb existsb flat_map] in *; try reflexivity;
      rewrite Hx, IHr by (intros; apply H, in_or_app; auto); reflexivity.
Qed.

Lemma index_of_app k l m s i : index_of k l s = Some i -> index_of k (l ++ m) s = Some i.
Proof.
  revert s. induction l as [| x r IH]; cbn; intros s H; [discriminate|].
  destruct (akey_eqb k x); auto.
Qed.
Lemma index_of_last k l s : exists i, index_of k (l ++ [k]) s = Some i.
Proof.
  revert s. induction l as [| x r IH]; cbn; intros s.
  - rewrite akey_eqb_refl. eauto.
  - destruct (akey_eqb k x); eauto.
Qed.
Lemma index_of_nth k l s i d : index_of k l s = Some i ->
  exists j, i = s + j /\ j < length l /\ akey_eqb k (nth j l d) = true.
Proof.
  revert s. induction l as [| x r IH]; cbn [index_of length]; intros s H; [discriminate|].
  destruct (akey_eqb k x) eqn:E.
  - injection H as <-. exists 0. split; [lia|split; [lia|exact E]].
  - destruct (IH _ H) as [j [-> [Hlt Hn]]]. exists (S j). split; [lia|split; [lia|exact Hn]].
Qed.

(* otherwise idx l k is the default, length l *)
Definition numbered (l : list akey) (k : akey) : Prop := exists i, index_of k l 0 = Some i.

Lemma numbered_idx l k d : numbered l k -> idx l k < length l /\ akey_eqb k (nth (idx l k) l d) = true.
Proof. intros [i Hi]. unfold idx. rewrite Hi. destruct (index_of_nth _ _ _ _ d Hi) as [j [-> H]]. exact H. Qed.

Lemma keys_of_ext c : forall acc, exists m, keys_of c acc = acc ++ m.
Proof.
  induction c as [k | a IH | o l IH] using rc_ind'; intros acc; cbn [keys_of].
  - destruct (index_of k acc 0); [exists []; symmetry; apply app_nil_r | eauto].
  - apply IH.
  - revert acc. induction IH as [| x r Hx _ IHr]; intros acc; cbn [fold_left].
    + exists []. symmetry. apply app_nil_r.
    + destruct (Hx acc) as [m1 ->]. destruct (IHr (acc ++ m1)) as [m2 ->]. exists (m1 ++ m2). symmetry. apply app_assoc.
Qed.

Lemma keys_of_found c : forall acc k, numbered acc k \/ In k (keys_in c) -> numbered (keys_of c acc) k.
Proof.
  unfold numbered.
  induction c as [k0 | a IH | o l IH] using rc_ind'; intros acc k H; cbn [keys_of keys_in] in *.
  - destruct (index_of k0 acc 0) eqn:E, H as [[i Hi] | [<- | []]]; eauto using index_of_app, index_of_last.
  - apply IH, H.
  - revert acc H. induction IH as [| x r Hx _ IHr]; intros acc H; cbn [fold_left flat_map] in *.
    + destruct H as [H | []]. exact H.
    + apply IHr. rewrite in_app_iff in H. destruct H as [H | [H | H]]; auto.
Qed.

(* a valuation that does not distinguish predicates with the same key *)
Definition respects (val : akey -> bool) : Prop := forall a b, akey_eqb a b = true -> val a = val b.

Lemma number_reads c val asg d : respects val ->
  let ks := keys_of c [] in (forall i, i < length ks -> asg i = val (nth i ks d)) ->
  rden val c = den asg (number ks c).
Proof.
  intros Hr ks Ha. rewrite number_den. apply rden_ext. intros k Hk.
  destruct (numbered_idx ks k d (keys_of_found c [] k (or_intror Hk))) as [Hlt Hn].
  rewrite (Ha _ Hlt). apply Hr, Hn.
Qed.

(* Every such valuation of the predicates of a combination is the reading of some assignment of their
   numbers: comparing the query with the reference under all assignments of the numbers compares them under
   all valuations of the reference predicates. *)
Theorem ref_valuations c val d : respects val ->
  rden val c = den (fun i => val (nth i (keys_of c []) d)) (number (keys_of c []) c).
Proof.
  intros Hr. apply (number_reads c val _ d Hr). reflexivity.
Qed.

Section Mask.
Local Open Scope N_scope.

Lemma asg_mask (n : nat) : forall asg : nat -> bool,
  exists m, m < 2 ^ N.of_nat n /\ forall i, (i < n)%nat -> N.testbit m (N.of_nat i) = asg i.
Proof.
  induction n as [| n IH]; intros asg; [exists 0; split; [reflexivity|lia]|].
  destruct (IH (fun i => asg (S i))) as [m [Hb Hm]].
  exists (2 * m + N.b2n (asg O)). rewrite Nat2N.inj_succ, N.pow_succ_r'. split.
  - destruct (asg O); simpl N.b2n; lia.
  - intros [| i] Hi; [apply N.testbit_0_r|]. rewrite Nat2N.inj_succ, N.testbit_succ_r. apply Hm. lia.
Qed.
End Mask.

(* For every valuation of the reference predicates there is a row m < 2^n of the enumerated table (n the
   number of distinct predicates) whose assignment - bit i of m for number i, as in Run/C01run.v asg_of - gives
   the numbered reference the value the combination of predicates has under the valuation. *)
Theorem ref_table_complete c val : respects val ->
  let ks := keys_of c [] in
  exists m, In m (seq 0 (Nat.pow 2 (length ks))) /\
    rden val c = den (fun a => N.testbit (N.of_nat m) (N.of_nat a)) (number ks c).
Proof.
  intros Hr ks. set (d := YNull []).
  destruct (asg_mask (length ks) (fun i => val (nth i ks d))) as [m [Hin Hb]].
  exists (N.to_nat m). rewrite N2Nat.id. split.
  - apply in_seq. assert (E : N.of_nat (2 ^ length ks) = (2 ^ N.of_nat (length ks))%N) by apply Nat2N.inj_pow. lia.
  - apply (number_reads c val _ d Hr). intros i Hi. apply Hb, Hi.
Qed.
