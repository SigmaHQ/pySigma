(* C12: the no-op instance of replace_string on the syntactic domain: no placeholder, no literal
   backslash directly before a wildcard (rs_dom, the premise of C12_replace_noop_roundtrip). *)
From Coq Require Import NArith List Bool.
From PS Require Import Base.Chars Model.SString Spec.Items Proofs.SStringP Model.Transform.
Import ListNotations.
Open Scope N_scope.

Fixpoint rs_dom (l : list item) : bool :=
  match l with
  | [] => true
  | Lit c :: l' =>
      (if N.eqb c c_bs then match l' with Multi :: _ | Single :: _ => false | _ => true end else true) && rs_dom l'
  | Ph _ :: _ => false
  | _ :: l' => rs_dom l'
  end.

Lemma bs_not_special : is_special c_bs = false.
Proof. reflexivity. Qed.

Lemma post_bs_other c r : N.eqb c c_bs = false -> post_bs (c :: r) = c :: post_bs r.
Proof. intros H. cbn [post_bs]. rewrite H. reflexivity. Qed.
Lemma post_bs_bs r :
  post_bs (c_bs :: r)
  = if match r with d :: _ => is_special d | [] => false end then c_bs :: post_bs r else c_bs :: c_bs :: post_bs r.
Proof. destruct r; reflexivity. Qed.

(* the premise is the test of rs_dom after a backslash, the conclusion the test of post_bs_bs *)
Lemma plain_head l :
  match l with Multi :: _ | Single :: _ => false | _ => true end = true ->
  match plain_items l with d :: _ => is_special d | [] => false end = false.
Proof.
  destruct l as [|[c| | |n] l']; try discriminate; try reflexivity. intros _.
  cbn [plain_items flat_map item_plain]. destruct (is_special c) eqn:Es; [reflexivity | exact Es].
Qed.

Lemma iparse_post_plain l : rs_dom l = true -> iparse (post_bs (plain_items l)) = l.
Proof.
  induction l as [|i l IH]; intros H; [reflexivity|].
  destruct i as [c| | |n]; cbn [rs_dom] in H; try discriminate.
  2,3: simpl; rewrite (IH H); reflexivity.
  apply andb_true_iff in H. destruct H as [H1 H2]. specialize (IH H2).
  change (plain_items (Lit c :: l)) with (item_plain (Lit c) ++ plain_items l). cbn [item_plain].
  destruct (is_special c) eqn:Es; [|destruct (N.eqb c c_bs) eqn:Eb]; cbn [app].
  - (* a literal wildcard character is printed as \c, which stays \c *)
    rewrite post_bs_bs, Es, (post_bs_other c) by apply special_not_bs, Es.
    cbn [iparse]. rewrite N.eqb_refl, Es, IH. reflexivity.
  - (* a literal backslash is doubled: what follows it is no wildcard *)
    apply N.eqb_eq in Eb. subst c. rewrite post_bs_bs, (plain_head l H1).
    cbn [iparse]. rewrite N.eqb_refl, orb_true_r, IH. reflexivity.
  - rewrite post_bs_other by exact Eb. cbn [iparse]. rewrite Eb, Es, IH. reflexivity.
Qed.

Theorem replace_noop_roundtrip sub l :
  rs_dom l = true -> contains_placeholder (canon l) = false ->
  sub (plain_items l) = plain_items l -> replace_sstring sub (canon l) = canon l.
Proof.
  intros Hd Hp Hs. unfold replace_sstring. rewrite Hp, to_plain_canon, Hs, parse_canon, (iparse_post_plain l Hd).
  reflexivity.
Qed.

Lemma replace_noop_refuted :
  exists l, rs_dom l = false /\ replace_sstring (fun s => s) (canon l) <> canon l.
Proof. exists [Lit c_bs; Multi]. split; [reflexivity | vm_compute; discriminate]. Qed.
