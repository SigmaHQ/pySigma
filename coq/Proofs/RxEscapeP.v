(* Escaping of regular expressions (Model/RxEscape.v) is undone by the target's reading rule (C05). *)
From Coq Require Import NArith List Bool Lia.
From PS Require Import Base.Chars Model.RxEscape.
Import ListNotations.
Local Open Scope nat_scope.

(* The case that is treated: every escaped string of the model's list is one character (those of cs), and so is
   the escape string (e). *)
Definition singles (cs : str) : list str := map (fun x => [x]) cs.
Definition esc1 (e : char) (cs : str) (c : char) : str := if mem c cs then [e; c] else [c].

Lemma first_alt_single cs c s :
  first_alt (singles cs) (c :: s) = if mem c cs then Some [c] else None.
Proof.
  induction cs as [|x cs IH]; simpl; [reflexivity|].
  rewrite andb_true_r. rewrite N.eqb_sym. destruct (N.eqb c x) eqn:E.
  - apply N.eqb_eq in E. subst x. reflexivity.
  - simpl. exact IH.
Qed.

Lemma rx_scan_single e cs s : forall fuel, length s < fuel ->
  rx_scan fuel (singles cs) [e] s = flat_map (esc1 e cs) s.
Proof.
  induction s as [|c s IH]; intros [|f] Hf; [inversion Hf | reflexivity | inversion Hf |].
  cbn [rx_scan flat_map]. rewrite first_alt_single. unfold esc1 at 1.
  destruct (mem c cs); cbn [app length skipn]; rewrite IH by (simpl in Hf; lia); reflexivity.
Qed.

Lemma rx_unscan_single e cs s : mem e cs = true -> forall fuel, length (flat_map (esc1 e cs) s) < fuel ->
  rx_unscan fuel (singles cs) [e] (flat_map (esc1 e cs) s) = s.
Proof.
  intros He. induction s as [|c s IH]; intros [|f] Hf; [inversion Hf | reflexivity | inversion Hf |].
  cbn [flat_map] in *. unfold esc1 at 1. unfold esc1 at 1 in Hf.
  destruct (mem c cs) eqn:Ec; cbn [app rx_unscan prefixb].
  - rewrite N.eqb_refl. cbn [andb length skipn]. rewrite first_alt_single, Ec. cbn [app length skipn Nat.add].
    rewrite IH; [reflexivity|]. simpl in Hf. lia.
  - (* c is not among the escaped characters, e is *)
    destruct (N.eqb_spec e c) as [->|_]; [congruence|]. cbn [andb].
    rewrite IH; [reflexivity|]. simpl in Hf. lia.
Qed.

Lemma rx_alts_single e cs : rx_alts (singles cs) [e] true = singles (cs ++ [e]).
Proof. unfold rx_alts, singles. rewrite map_app. reflexivity. Qed.

Lemma rx_escape_single e cs s :
  rx_escape (singles cs) [e] true false [] s = flat_map (esc1 e (cs ++ [e])) s.
Proof.
  unfold rx_escape, rx_prefix. cbv zeta. rewrite rx_alts_single. cbn [app].
  destruct (cs ++ [e]) as [|x r] eqn:E; [destruct cs; discriminate|].
  apply (rx_scan_single e (x :: r)). lia.
Qed.

Theorem rx_escape_roundtrip e cs s :
  rx_unescape (singles cs) [e] true (rx_escape (singles cs) [e] true false [] s) = s.
Proof.
  rewrite rx_escape_single. unfold rx_unescape. rewrite rx_alts_single.
  apply rx_unscan_single; [|lia].
  unfold mem. rewrite existsb_app. simpl. rewrite N.eqb_refl. apply orb_true_r.
Qed.
