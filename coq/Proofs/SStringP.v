(* SigmaString (Model/SString.v) against its item-list reading (Spec/Items.v): `canon`, the part list
   of an item list, is what parsing builds; on the domain no_bs_adjacent the plain text of an item list
   parses back to it (C05, C12). *)
From Coq Require Import NArith List Bool.
From PS Require Import Base.Chars Model.SString Spec.Items.
Import ListNotations.
Open Scope N_scope.

(* the part list of an item list: consecutive literal characters form one plain part *)
Fixpoint canon_go (l : list item) (acc : str) : sstring :=
  match l with
  | [] => flush [] acc
  | Lit c :: l' => canon_go l' (acc ++ [c])
  | Multi :: l' => flush [] acc ++ PMulti :: canon_go l' []
  | Single :: l' => flush [] acc ++ PSingle :: canon_go l' []
  | Ph n :: l' => flush [] acc ++ PPh n :: canon_go l' []
  end.
Definition canon (l : list item) : sstring := canon_go l [].

Lemma flush_app r acc : flush r acc = r ++ flush [] acc.
Proof. destruct acc; simpl; [rewrite app_nil_r|]; reflexivity. Qed.

Lemma special_not_bs c : is_special c = true -> N.eqb c c_bs = false.
Proof.
  unfold is_special, c_star, c_qm, c_bs. intros H. apply orb_true_iff in H.
  destruct H as [H|H]; apply N.eqb_eq in H; subst; reflexivity.
Qed.

Lemma special_item_part c l acc :
  canon_go (special_item c :: l) acc = flush [] acc ++ special_of c :: canon_go l [].
Proof. unfold special_item, special_of. destruct (N.eqb c c_star); reflexivity. Qed.

Definition plain_char (c : char) : bool := negb (is_special c || N.eqb c c_bs).

Lemma iparse_plain_app x r : forallb plain_char x = true -> iparse (x ++ r) = map Lit x ++ iparse r.
Proof.
  induction x as [|c x IH]; intros H; [reflexivity|].
  cbn [forallb] in H. apply andb_true_iff in H. destruct H as [Hc Hx].
  unfold plain_char in Hc. apply negb_true_iff, orb_false_iff in Hc. destruct Hc as [H1 H2].
  cbn [app iparse map]. rewrite H2, H1, IH by exact Hx. reflexivity.
Qed.

Lemma iparse_plain x : forallb plain_char x = true -> iparse x = map Lit x.
Proof. intros H. rewrite <- (app_nil_r x) at 1. rewrite (iparse_plain_app x [] H). apply app_nil_r. Qed.

Lemma wild_star t : wild_match [Multi] t = true.
Proof. induction t as [|a t IH]; [reflexivity|]. cbn in *. exact IH. Qed.

Definition iread (esc : bool) (s : str) : list item := if esc then iparse s else iparse_noesc s.

Lemma iread_cons esc c s : N.eqb c c_bs && esc = false ->
  iread esc (c :: s) = (if is_special c then special_item c else Lit c) :: iread esc s.
Proof.
  destruct esc; [|reflexivity]. rewrite andb_true_r. intros E. cbn [iread iparse]. rewrite E.
  destruct (is_special c); reflexivity.
Qed.

(* The flag `escaped` is only ever set when escaping is on, and stands for a backslash read but not yet
   accounted for: hence the premise, and the backslash put back in front of s. *)
Lemma parse_go_canon esc s : forall r acc escaped, (escaped = true -> esc = true) ->
  parse_go esc s r acc escaped = r ++ canon_go (iread esc (if escaped then c_bs :: s else s)) acc.
Proof.
  induction s as [|c s IH]; intros r acc escaped He.
  - destruct escaped; [rewrite He by reflexivity | destruct esc]; simpl; rewrite flush_app; reflexivity.
  - destruct escaped.
    + specialize (He eq_refl). subst esc. cbn [parse_go]. change (iread true (c_bs :: c :: s)) with
        (if is_special c || N.eqb c c_bs then Lit c :: iparse s else Lit c_bs :: Lit c :: iparse s).
      destruct (is_special c || N.eqb c c_bs); rewrite IH by discriminate; cbn [canon_go].
      * reflexivity.
      * rewrite <- app_assoc. reflexivity.
    + cbn [parse_go]. destruct (N.eqb c c_bs && esc) eqn:Eb.
      * apply andb_true_iff in Eb as [Eb ->]. apply N.eqb_eq in Eb. subst c. apply IH. reflexivity.
      * rewrite iread_cons by exact Eb. destruct (is_special c); rewrite IH by discriminate.
        -- rewrite special_item_part, (flush_app r acc), <- !app_assoc. reflexivity.
        -- reflexivity.
Qed.

Theorem parse_read esc s : parse esc s = canon (iread esc s).
Proof. unfold parse. rewrite parse_go_canon by discriminate. reflexivity. Qed.

Theorem parse_canon s : parse true s = canon (iparse s).
Proof. exact (parse_read true s). Qed.

Lemma items_flush acc : items (flush [] acc) = map Lit acc.
Proof. destruct acc; simpl; [reflexivity | rewrite app_nil_r; reflexivity]. Qed.

Lemma items_app a b : items (a ++ b) = items a ++ items b.
Proof. unfold items. apply flat_map_app. Qed.

Lemma items_cons p v : items (p :: v) = part_items p ++ items v.
Proof. reflexivity. Qed.

Lemma items_canon_go l : forall acc, items (canon_go l acc) = map Lit acc ++ l.
Proof.
  induction l as [|i l IH]; intros acc; cbn [canon_go].
  - rewrite items_flush, app_nil_r. reflexivity.
  - destruct i.
    2-4: rewrite items_app, items_flush, items_cons, IH; reflexivity.
    rewrite IH, map_app, <- app_assoc. reflexivity.
Qed.

Theorem items_canon l : items (canon l) = l.
Proof. unfold canon. rewrite items_canon_go. reflexivity. Qed.

Theorem parse_read_items esc s : items (parse esc s) = iread esc s.
Proof. rewrite parse_read. apply items_canon. Qed.

Theorem parse_items s : items (parse true s) = iparse s.
Proof. exact (parse_read_items true s). Qed.

Theorem parse_spec s : parse true s = canon (iparse s) /\ items (parse true s) = iparse s.
Proof. split; [apply parse_canon | apply parse_items]. Qed.

(* Joining neighbouring plain parts, which Modifiers (merge_strs) and Placeholder (merge) define with this body:
   the lemma applies to both by conversion. *)
Fixpoint merge_plain (v : sstring) : sstring :=
  match v with
  | [] => []
  | PStr a :: v' =>
      match merge_plain v' with
      | PStr b :: r => PStr (a ++ b) :: r
      | r => PStr a :: r
      end
  | p :: v' => p :: merge_plain v'
  end.

Lemma items_merge_plain v : items (merge_plain v) = items v.
Proof.
  induction v as [|p v IH]; [reflexivity|].
  destruct p as [a| | |n]; cbn [merge_plain]; rewrite ?items_cons, ?IH; try reflexivity.
  destruct (merge_plain v) as [|[b| | |m] r] eqn:E; rewrite <- IH, ?items_cons; cbn [part_items];
    rewrite ?map_app, <- ?app_assoc; reflexivity.
Qed.

Lemma contains_placeholder_app a b :
  contains_placeholder (a ++ b) = contains_placeholder a || contains_placeholder b.
Proof. apply existsb_app. Qed.

Lemma parse_go_placeholder esc s : forall r acc escaped,
  contains_placeholder (parse_go esc s r acc escaped) = contains_placeholder r.
Proof.
  assert (F : forall r acc, contains_placeholder (flush r acc) = contains_placeholder r).
  { intros r [|a acc]; [reflexivity|]. cbn [flush]. rewrite contains_placeholder_app. apply orb_false_r. }
  induction s as [|c s IH]; intros r acc escaped; cbn [parse_go]; [apply F|].
  destruct escaped; [destruct (is_special c || N.eqb c c_bs); apply IH|].
  destruct (N.eqb c c_bs && esc); [apply IH|]. destruct (is_special c); [|apply IH].
  rewrite IH, contains_placeholder_app, F. unfold special_of. destruct (N.eqb c c_star); apply orb_false_r.
Qed.

Theorem parse_placeholder_free esc s : contains_placeholder (parse esc s) = false.
Proof. apply parse_go_placeholder. Qed.

Lemma to_plain_app r a b : to_plain r (a ++ b) = to_plain r a ++ to_plain r b.
Proof. unfold to_plain. apply flat_map_app. Qed.

Lemma plain_escape_app a b : plain_escape (a ++ b) = plain_escape a ++ plain_escape b.
Proof. unfold plain_escape. apply flat_map_app. Qed.

Lemma to_plain_cons r p v : to_plain r (p :: v) = part_plain r p ++ to_plain r v.
Proof. reflexivity. Qed.

Lemma to_plain_items v : to_plain false v = plain_items (items v).
Proof.
  induction v as [|p v IH]; [reflexivity|].
  rewrite to_plain_cons, items_cons. unfold plain_items in *. rewrite flat_map_app, <- IH. f_equal.
  destruct p; cbn [part_plain part_items flat_map item_plain]; rewrite ?app_nil_r; try reflexivity.
  unfold plain_escape. induction s as [|c s IHs]; [reflexivity|].
  cbn [flat_map map item_plain]. rewrite IHs. reflexivity.
Qed.

Theorem to_plain_canon l : to_plain false (canon l) = plain_items l.
Proof. rewrite to_plain_items, items_canon. reflexivity. Qed.

Lemma plain_items_cons i l : plain_items (i :: l) = item_plain i ++ plain_items l.
Proof. reflexivity. Qed.

Theorem iparse_plain_items l : no_bs_adjacent l = true -> iparse (plain_items l) = l.
Proof.
  induction l as [|i l IH]; intros H; [reflexivity|]. rewrite plain_items_cons.
  destruct i as [c| | |n]; cbn [no_bs_adjacent] in H; [| | |discriminate].
  2-3: simpl; rewrite (IH H); reflexivity.
  apply andb_true_iff in H as [H1 H2]. specialize (IH H2). cbn [item_plain].
  destruct (is_special c) eqn:Es.
  - cbn [app iparse]. rewrite N.eqb_refl, Es, IH. reflexivity.
  - cbn [app iparse]. rewrite Es. destruct (N.eqb c c_bs) eqn:Eb; [|rewrite IH; reflexivity].
    (* a backslash is read as itself because what follows it is an ordinary character *)
    apply N.eqb_eq in Eb. subst c. destruct l as [|[d| | |m] l']; try discriminate; [reflexivity|].
    apply negb_true_iff, orb_false_iff in H1 as [Hs Hb]. revert IH.
    rewrite plain_items_cons. cbn [item_plain]. rewrite Hs. cbn [app iparse]. rewrite Hs, Hb. intros [= ->]. reflexivity.
Qed.

Theorem plain_roundtrip l :
  no_bs_adjacent l = true -> parse true (to_plain false (canon l)) = canon l.
Proof. intros H. rewrite parse_canon, to_plain_canon, iparse_plain_items by exact H. reflexivity. Qed.

(* Outside the domain the round trip fails, with one witness for each thing that must not follow a literal
   backslash: a wildcard, another backslash, a literal wildcard character. *)
Lemma plain_roundtrip_refuted :
  exists l, parse true (to_plain false (canon l)) <> canon l.
Proof. exists [Lit c_bs; Multi]. vm_compute. discriminate. Qed.
Lemma plain_roundtrip_refuted2 :
  parse true (to_plain false (canon [Lit c_bs; Lit c_bs])) <> canon [Lit c_bs; Lit c_bs] /\
  parse true (to_plain false (canon [Lit c_bs; Lit c_star])) <> canon [Lit c_bs; Lit c_star].
Proof. split; vm_compute; discriminate. Qed.
