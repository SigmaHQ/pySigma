(* The detection part of a rule is read back from its plain form as the same object (C06).
   Item level: a key written by key_of is parsed back to the same field and modifiers, a value is
   read back from its plain form; detection level: on the domain of Spec/RoundTrip.v no result is
   filtered out and the duplicate-key merge is the identity, so loading inverts writing pointwise.
   The merge path itself is shown to keep the meaning of the mapping (AND of its entries). *)
From Coq Require Import NArith ZArith List Bool.
From PS Require Import Base.Chars Base.Outcome Proofs.SStringP
                       Model.Serialize Spec.RoundTrip Proofs.OutcomeP Proofs.CharsP.
Import ListNotations.
Open Scope N_scope.

Lemma lookup_canon m : lookup_mod modifier_mapping (canon_id m) = Some m.
Proof. destruct m; vm_compute; reflexivity. Qed.

Lemma canon_nopipe m : mem c_pipe (canon_id m) = false.
Proof. destruct m; vm_compute; reflexivity. Qed.

(* `all` is the only identifier that begins with "all" *)
Lemma all_prefix m y : prefixb s_allid (canon_id m ++ y) = mcls_eqb M_All m.
Proof. destruct m; reflexivity. Qed.

Lemma all_id m : str_eqb s_allid (canon_id m) = mcls_eqb M_All m.
Proof. destruct m; reflexivity. Qed.

Lemma mcls_eqb_refl m : mcls_eqb m m = true.
Proof. destruct m; reflexivity. Qed.

Lemma obind_err {A B} (x : outcome A) (f : A -> outcome B) : is_err x = true -> is_err (obind x f) = true.
Proof. destruct x; [discriminate | reflexivity..]. Qed.

(* Serialize.mapM is OutcomeP's traverse written out: traverse_rel and traverse_intro apply to it by conversion *)
Lemma mapM_Forall {A B} (f : A -> outcome B) (Q : B -> Prop) l ys :
  mapM f l = Ok ys -> (forall x, In x l -> forall y, f x = Ok y -> Q y) -> Forall Q ys.
Proof.
  intros H HQ. apply (traverse_rel _ (fun _ y => Q y)) in H; [|exact HQ].
  clear HQ. induction H; constructor; assumption.
Qed.

Lemma mapM_map {A B C} (f : A -> outcome B) (g : B -> C) (h : A -> C) l ys :
  mapM f l = Ok ys -> (forall x, In x l -> forall y, f x = Ok y -> g y = h x) -> map g ys = map h l.
Proof.
  intros H Hg. apply (traverse_rel _ (fun x y => g y = h x)) in H; [|exact Hg].
  clear Hg. induction H as [|x y l ys Hy _ IH]; cbn [map]; [reflexivity|]. rewrite Hy, IH. reflexivity.
Qed.

Lemma mapM_inverse {A B} (f : A -> outcome B) (g : B -> outcome A) l ys :
  mapM f l = Ok ys -> (forall x, In x l -> forall y, f x = Ok y -> g y = Ok x) -> mapM g ys = Ok l.
Proof.
  intros H Hg. apply (traverse_rel _ (fun x y => g y = Ok x)) in H; [|exact Hg].
  clear Hg. apply traverse_intro. induction H; constructor; assumption.
Qed.

Lemma mapM_map_ok {A B} (f : A -> outcome B) (g : B -> A) l :
  (forall x, In x l -> f (g x) = Ok x) -> mapM f (map g l) = Ok l.
Proof.
  intros H. apply traverse_intro. induction l as [|x l IH]; constructor.
  - apply H. left. reflexivity.
  - apply IH. intros y Hy. apply H. right. exact Hy.
Qed.

Lemma mapM_err {A B} (f : A -> outcome B) x l : In x l -> is_err (f x) = true -> is_err (mapM f l) = true.
Proof.
  intros Hin Hx. induction l as [|a l IH]; [contradiction|]. destruct Hin as [->|Hin]; cbn [mapM].
  - apply obind_err. exact Hx.
  - destruct (f a); [|reflexivity..]. cbn [obind]. apply obind_err, IH. exact Hin.
Qed.

Lemma filter_id {A} (f : A -> bool) l : Forall (fun x => f x = true) l -> filter f l = l.
Proof. induction 1 as [|x l Hx _ IH]; cbn [filter]; [reflexivity|]. rewrite Hx, IH. reflexivity. Qed.

Lemma forallb_false_exists {A} (f : A -> bool) l : forallb f l = false -> existsb (fun x => negb (f x)) l = true.
Proof. induction l as [|x l IH]; cbn [forallb existsb]; [discriminate|]. destruct (f x); [exact IH | reflexivity]. Qed.

Lemma nopipe_cons c x : mem c_pipe (c :: x) = false -> N.eqb c c_pipe = false /\ mem c_pipe x = false.
Proof. intros H. apply orb_false_iff in H. rewrite N.eqb_sym. exact H. Qed.

Lemma split_nopipe x : mem c_pipe x = false -> split_pipe x = [x].
Proof.
  induction x as [|c x IH]; intros H; [reflexivity|].
  apply nopipe_cons in H as [Hc Hx]. cbn [split_pipe]. rewrite Hc, (IH Hx). reflexivity.
Qed.

Lemma split_head s : exists h t, split_pipe s = h :: t /\ mem c_pipe h = false.
Proof.
  induction s as [|c s (h & t & E & Hh)]; cbn [split_pipe]; [eauto|].
  destruct (N.eqb c c_pipe) eqn:Ec; [eauto|]. rewrite E. exists (c :: h), t. split; [reflexivity|].
  cbn [mem existsb]. rewrite N.eqb_sym, Ec. exact Hh.
Qed.

Lemma split_pipe_app a b : split_pipe (a ++ c_pipe :: b) = split_pipe a ++ split_pipe b.
Proof.
  induction a as [|c a IH]; cbn [app split_pipe]; [rewrite N.eqb_refl; reflexivity|].
  rewrite IH. destruct (N.eqb c c_pipe); [reflexivity|].
  destruct (split_head a) as (h & t & -> & _). reflexivity.
Qed.

Lemma split_ids x ms : mem c_pipe x = false ->
  split_pipe (x ++ flat_map (fun m => c_pipe :: canon_id m) ms) = x :: map canon_id ms.
Proof.
  revert x. induction ms as [|m ms IH]; intros x Hx; cbn [flat_map map app].
  - rewrite app_nil_r. exact (split_nopipe x Hx).
  - rewrite split_pipe_app, (split_nopipe x Hx), IH by apply canon_nopipe. reflexivity.
Qed.

Lemma field_nopipe f : field_ok f -> mem c_pipe (match f with Some x => x | None => [] end) = false.
Proof. destruct f; [intros [_ H]; exact H | reflexivity]. Qed.

Lemma parse_key_field k f ms : parse_key k = Ok (f, ms) -> field_ok f.
Proof.
  unfold parse_key. destruct (split_head k) as (h & ids & -> & Hh). intros H.
  apply obind_ok in H as (ms' & _ & [= <- _]). destruct h; [exact I|]. split; [discriminate | exact Hh].
Qed.

Lemma parse_key_of f ms : field_ok f -> parse_key (key_of f ms) = Ok (f, ms).
Proof.
  intros Hf. unfold parse_key, key_of. rewrite split_ids by exact (field_nopipe f Hf).
  rewrite mapM_map_ok by (intros m _; rewrite lookup_canon; reflexivity). cbn [obind].
  destruct f as [[|c x]|]; [destruct Hf as [[] _] | ..]; reflexivity.
Qed.

Lemma infixb_skip_nopipe q x y : mem c_pipe x = false -> infixb (c_pipe :: q) (x ++ y) = infixb (c_pipe :: q) y.
Proof.
  induction x as [|c x IH]; intros H; [reflexivity|].
  apply nopipe_cons in H as [Hc Hx]. cbn [app infixb prefixb]. rewrite N.eqb_sym, Hc. exact (IH Hx).
Qed.

Lemma infixb_ids ms : infixb s_all (flat_map (fun m => c_pipe :: canon_id m) ms) = has_mod M_All ms.
Proof.
  change s_all with (c_pipe :: s_allid). induction ms as [|m ms IH]; [reflexivity|].
  cbn [flat_map app infixb prefixb]. rewrite N.eqb_refl, all_prefix, infixb_skip_nopipe, IH by apply canon_nopipe.
  reflexivity.
Qed.

Lemma segs_all_key_of f ms : field_ok f -> segs_all (key_of f ms) = has_mod M_All ms.
Proof.
  intros Hf. unfold segs_all, key_of. rewrite split_ids by exact (field_nopipe f Hf). cbn [tl].
  induction ms as [|m ms IH]; [reflexivity|]. cbn [map existsb]. rewrite all_id, IH. reflexivity.
Qed.

Lemma key_of_wf f ms : field_ok f -> key_wf (key_of f ms).
Proof.
  intros Hf. unfold key_wf. rewrite (segs_all_key_of f ms Hf). unfold key_of. change s_all with (c_pipe :: s_allid).
  rewrite infixb_skip_nopipe by exact (field_nopipe f Hf). apply infixb_ids.
Qed.

Lemma split_all k : split_pipe (k ++ s_all) = split_pipe k ++ [s_allid].
Proof. apply split_pipe_app. Qed.

Lemma segs_all_app k : segs_all (k ++ s_all) = true.
Proof.
  unfold segs_all. rewrite split_all. destruct (split_head k) as (x & t & -> & _).
  cbn [app tl]. rewrite existsb_app. apply orb_true_r.
Qed.

Lemma base_key_app k : base_key (k ++ s_all) = base_key k.
Proof.
  unfold base_key. rewrite split_all. destruct (split_head k) as (x & t & -> & _).
  cbn [app]. rewrite filter_app. cbn. rewrite app_nil_r. reflexivity.
Qed.

Lemma infixb_app_r p a : infixb p (a ++ p) = true.
Proof.
  induction a as [|c a IH]; cbn [app].
  - pose proof (prefixb_app p []) as H. rewrite app_nil_r in H. destruct p; cbn [infixb]; rewrite H; reflexivity.
  - cbn [infixb]. rewrite IH. apply orb_true_r.
Qed.

Lemma value_roundtrip re v p :
  inv_val re v -> sval_dom re v = true -> value_plain re v = Ok p -> sigma_of re p = v.
Proof.
  intros Hi Hd Hp. destruct re.
  - destruct Hi as [s ->]. injection Hp as <-. cbn. rewrite app_nil_r. reflexivity.
  - destruct v; cbn [inv_val value_plain] in Hi, Hp; try contradiction; injection Hp as <-; try reflexivity.
    destruct Hi as [t ->]. cbn [sval_dom orb] in Hd. rewrite parse_items in Hd.
    cbn [sigma_of]. rewrite (parse_canon t), plain_roundtrip by exact Hd. reflexivity.
Qed.

Lemma values_roundtrip re o vs :
  Forall (inv_val re) o -> forallb (sval_dom re) o = true ->
  mapM (value_plain re) o = Ok vs -> map (sigma_of re) vs = o.
Proof.
  intros Hi Hd Hp. rewrite Forall_forall in Hi. rewrite forallb_forall in Hd.
  rewrite <- (map_id o). refine (mapM_map _ _ _ _ _ Hp _). intros v Hin p. apply value_roundtrip; auto.
Qed.

Lemma vals_unwrap v : vals_of (unwrap1 v) = vals_of v.
Proof. destruct v as [x|[|x [|y l]]]; reflexivity. Qed.

Lemma md_get_notin k md : notin k (map fst md) = true -> md_get k md = None.
Proof.
  induction md as [|[k' v] md IH]; intros H; [reflexivity|].
  cbn [map fst notin] in H. apply andb_true_iff in H as [H1 H2]. apply negb_true_iff in H1.
  cbn [md_get]. rewrite H1. exact (IH H2).
Qed.

Lemma md_set_absent k w md : md_get k md = None -> md_set k w md = md ++ [(k, w)].
Proof.
  induction md as [|[k' v'] md IH]; intros H; [reflexivity|].
  cbn [md_get md_set] in *. destruct (str_eqb k' k); [discriminate|]. rewrite (IH H). reflexivity.
Qed.

Lemma notin_app k a b : notin k (a ++ b) = notin k a && notin k b.
Proof. induction a as [|x a IH]; cbn [app notin]; [reflexivity|]. rewrite IH. apply andb_assoc. Qed.

Lemma nodupb_mid a k b : nodupb (a ++ k :: b) = true -> notin k a = true.
Proof.
  induction a as [|x a IH]; intros H; [reflexivity|].
  cbn [app nodupb] in H. apply andb_true_iff in H as [H1 H2].
  rewrite notin_app in H1. apply andb_true_iff in H1 as [_ H1]. apply andb_true_iff in H1 as [H1 _].
  cbn [notin]. rewrite str_eqb_sym, H1. exact (IH H2).
Qed.

Lemma merge_nodup es : forall md,
  nodupb (map fst md ++ map fst es) = true -> merge_all md es = Ok (md ++ es).
Proof.
  induction es as [|[k v] es IH]; intros md H; cbn [merge_all merge_step].
  - rewrite app_nil_r. reflexivity.
  - cbn [map fst] in H. pose proof (md_get_notin _ _ (nodupb_mid _ _ _ H)) as Hk.
    rewrite Hk, (md_set_absent _ _ _ Hk). cbn [obind]. rewrite IH, <- app_assoc; [reflexivity|].
    rewrite map_app, <- app_assoc. exact H.
Qed.

Section Main.
Context {T : Type}.
Variable apply_mods : option str -> list mcls -> list sval -> outcome T.
Notation load_item := (load_item apply_mods).
Notation load_def := (load_def apply_mods).
Notation load_dets := (load_dets apply_mods).
Notation inv_item := (inv_item apply_mods).
Notation inv := (inv apply_mods).

Lemma sigma_of_inv re p : inv_val re (sigma_of re p) <-> (re = true -> is_str p = true).
Proof.
  unfold inv_val, sigma_of. destruct re.
  - split; [intros [s E] _ | intros H; specialize (H eq_refl)]; destruct p; try discriminate; eauto.
  - split; [discriminate|]. intros _. destruct p; cbn; eauto.
Qed.

Lemma str_check_inv re vs :
  re && negb (forallb is_str vs) = false <-> Forall (inv_val re) (map (sigma_of re) vs).
Proof.
  rewrite Forall_map, Forall_forall. destruct re; cbn [andb].
  - rewrite negb_false_iff, forallb_forall. split; intros H p Hin.
    + apply sigma_of_inv. intros _. exact (H p Hin).
    + exact (proj1 (sigma_of_inv true p) (H p Hin) eq_refl).
  - split; [|reflexivity]. intros _ p _. apply sigma_of_inv. discriminate.
Qed.

Lemma load_item_inv key v i : load_item key v = Ok i -> inv_item i.
Proof.
  unfold Serialize.load_item. intros H. apply obind_ok in H as ([f ms] & Hk & H).
  destruct (has_mod M_RegularExpression ms && negb (forallb is_str (vals_of v))) eqn:Ere; [discriminate|].
  apply obind_ok in H as (t & Ha & [= <-]). split; cbn [i_field i_mods i_orig i_val].
  - destruct key as [k|]; [exact (parse_key_field _ _ _ Hk) | injection Hk as <- _; exact I].
  - eexists. split; [reflexivity|]. split; [exact Ha|]. apply str_check_inv. exact Ere.
Qed.

Section DdefInd.
  Variable P : ddef -> Prop.
  Hypothesis Hv : forall v, P (DVal v).
  Hypothesis Hl : forall l, Forall P l -> P (DList l).
  Hypothesis Hm : forall m, P (DMap m).
  Fixpoint ddef_ind' (d : ddef) : P d :=
    match d with
    | DVal v => Hv v
    | DList l => Hl l ((fix go (l : list ddef) : Forall P l :=
                          match l with [] => Forall_nil P | x :: r => Forall_cons x (ddef_ind' x) (go r) end) l)
    | DMap m => Hm m
    end.
End DdefInd.

Section DetInd.
  Variable P : det T -> Prop.
  Hypothesis Hi : forall l, P (DItems l).
  Hypothesis Hs : forall l, Forall P l -> P (DSubs l).
  Hypothesis Hx : P DMixed.
  Hypothesis Ho : forall l, P (DItemsOr l).
  Fixpoint det_ind' (d : det T) : P d :=
    match d with
    | DMixed => Hx
    | DItemsOr l => Ho l
    | DItems l => Hi l
    | DSubs l => Hs l ((fix go (l : list (det T)) : Forall P l :=
                          match l with [] => Forall_nil P | x :: r => Forall_cons x (det_ind' x) (go r) end) l)
    end.
End DetInd.

Lemma load_def_list l :
  load_def (DList l) =
  if forallb is_plain l then obind (load_item None (MMany (plains l))) (fun i => mk_items [i])
  else obind (mapM load_def l) mk_subs.
Proof.
  cbn [Serialize.load_def]. destruct (forallb is_plain l); [reflexivity|]. f_equal.
  induction l as [|x l IH]; [reflexivity|]. cbn [mapM]. rewrite <- IH. reflexivity.
Qed.

Lemma det_plain_subs (l : list (det T)) :
  det_plain (DSubs l) = obind (mapM det_plain l) (fun rs => Ok (DList (filter (fun x => negb (is_null_def x)) rs))).
Proof.
  cbn [det_plain]. f_equal. induction l as [|x l IH]; [reflexivity|]. cbn [mapM]. rewrite <- IH. reflexivity.
Qed.

Lemma inv_subs l : inv (DSubs l) <-> Forall inv l.
Proof.
  cbn [RoundTrip.inv]. induction l as [|d l IH]; [split; constructor|].
  rewrite Forall_cons_iff, IH. reflexivity.
Qed.

Lemma mk_items_ok (l : list (item T)) r : mk_items l = Ok r -> r = DItems l /\ l <> [].
Proof. destruct l; intros [= <-]. split; [reflexivity | discriminate]. Qed.
Lemma mk_subs_ok (l : list (det T)) r : mk_subs l = Ok r -> r = DSubs l /\ l <> [].
Proof. destruct l; intros [= <-]. split; [reflexivity | discriminate]. Qed.

Theorem load_inv : forall d r, load_def d = Ok r -> inv r.
Proof.
  assert (Hone : forall key v r, obind (load_item key v) (fun i => mk_items [i]) = Ok r -> inv r).
  { intros key v r H. apply obind_ok in H as (i & Hi & [= <-]).
    constructor; [exact (load_item_inv _ _ _ Hi) | constructor]. }
  induction d as [v | l IH | m] using ddef_ind'; intros r H.
  - exact (Hone _ _ _ H).
  - rewrite load_def_list in H. destruct (forallb is_plain l); [exact (Hone _ _ _ H)|].
    apply obind_ok in H as (ds & Hds & H). apply mk_subs_ok in H as [-> _]. apply inv_subs.
    rewrite Forall_forall in IH. exact (mapM_Forall _ _ _ _ Hds IH).
  - cbn [Serialize.load_def] in H. apply obind_ok in H as (its & Hits & H). apply mk_items_ok in H as [-> _].
    refine (mapM_Forall _ _ _ _ Hits _). intros kv _ i. apply load_item_inv.
Qed.

Definition value_of (vs : list pv) : mval := match vs with [x] => MOne x | _ => MMany vs end.
Lemma vals_value vs : vals_of (value_of vs) = vs.
Proof. destruct vs as [|x [|y r]]; reflexivity. Qed.

(* what SigmaDetectionItem.to_plain returns for field f, modifiers ms and plain value v *)
Definition item_pres (f : option str) (ms : list mcls) (v : mval) : pres :=
  match f, ms with None, [] => PRv v | _, _ => PRd (key_of f ms) v end.
Definition pres_key (p : pres) : str := match p with PRv _ => [] | PRd k _ => k end.
(* how from_definition reads such a result *)
Definition reload_pres (p : pres) : outcome (item T) :=
  match p with PRv v => load_item None v | PRd k v => load_item (Some k) v end.

Lemma item_plain_ok (i : item T) p : item_plain i = Ok p ->
  exists o vs, i_orig i = Some o /\ mapM (value_plain (has_re (i_mods i))) o = Ok vs /\
               p = item_pres (i_field i) (i_mods i) (value_of vs).
Proof.
  unfold item_plain. destruct (i_orig i) as [o|]; [|discriminate]. intros H.
  apply obind_ok in H as (vs & Hvs & H). exists o, vs. split; [reflexivity|]. split; [exact Hvs|].
  unfold item_pres. destruct (i_field i), (i_mods i); injection H as <-; reflexivity.
Qed.

Lemma item_not_none (i : item T) p : dom_item i = true -> item_plain i = Ok p -> is_none p = false.
Proof.
  intros Hd Hp. apply item_plain_ok in Hp as (o & vs & Ho & Hvs & ->).
  unfold dom_item, null_kw in Hd. rewrite Ho in Hd. destruct (i_field i), (i_mods i); try reflexivity.
  (* a result without key is None only when PNull is all that was written, and only SNull is written as PNull *)
  apply (traverse_rel _ (fun x y => y = PNull -> x = SNull)) in Hvs.
  2:{ intros [] _ y [= <-]; (discriminate || reflexivity). }
  destruct Hvs as [|x y o vs Hy Hr]; [reflexivity|]. destruct Hr; [|destruct y; reflexivity].
  destruct y; try reflexivity. rewrite (Hy eq_refl) in Hd. discriminate Hd.
Qed.

Lemma pres_key_item f ms v : pres_key (item_pres f ms v) = key_of f ms.
Proof. destruct f, ms; reflexivity. Qed.

(* a value without key is read like a value under the empty key *)
Lemma reload_item_pres f ms v : reload_pres (item_pres f ms v) = load_item (Some (key_of f ms)) v.
Proof. destruct f, ms; reflexivity. Qed.

Lemma item_reload i p : inv_item i -> dom_item i = true -> item_plain i = Ok p -> reload_pres p = Ok i.
Proof.
  intros [Hf (o & Ho & Ha & Hv)] Hd Hp. apply item_plain_ok in Hp as (o' & vs & Ho' & Hvs & ->).
  unfold dom_item in Hd. rewrite Ho in Hd, Ho'. injection Ho' as <-. apply andb_true_iff in Hd as [_ Hd].
  rewrite reload_item_pres. unfold Serialize.load_item. rewrite (parse_key_of _ _ Hf), vals_value. cbn [obind].
  (* the plain values vs read back as o; the invariant of o, moved onto what is read, is the reader's `re` type check *)
  fold (has_re (i_mods i)). pose proof (values_roundtrip _ _ _ Hv Hd Hvs) as Ev. rewrite <- Ev in Hv.
  rewrite (proj2 (str_check_inv _ _) Hv), Ev, Ha.
  destruct i as [f ms oo t]; cbn [i_field i_mods i_orig i_val obind] in *. rewrite Ho. reflexivity.
Qed.

(* what SigmaDetection.to_plain writes for the item results that are left when the None results are gone *)
Definition items_written (rs : list pres) : outcome ddef :=
  match rs with
  | [] => SigmaErr E_Detection
  | [x] => Ok (pres_ddef x)
  | _ =>
    if existsb is_dict rs && existsb (fun p => negb (is_dict p)) rs then SigmaErr E_Value
    else if forallb is_dict rs then
      obind (merge_all [] (dict_entries rs)) (fun md => Ok (DMap (map (fun kv => (fst kv, unwrap1 (snd kv))) md)))
    else Ok (DList (map DVal (flat_map (fun p => match p with PRv v => aslist v | _ => [] end) rs)))
  end.

Lemma det_plain_items (l : list (item T)) :
  det_plain (DItems l) = obind (mapM item_plain l) (fun rs => items_written (filter (fun p => negb (is_none p)) rs)).
Proof. reflexivity. Qed.

Lemma plains_map vs : forallb is_plain (map DVal vs) = true /\ plains (map DVal vs) = vs.
Proof.
  induction vs as [|v vs [IH1 IH2]]; [split; reflexivity|]. split; [exact IH1|].
  unfold plains in *. cbn [map flat_map app]. rewrite IH2. reflexivity.
Qed.

Lemma load_pres_ddef p : load_def (pres_ddef p) = obind (reload_pres p) (fun i => mk_items [i]).
Proof.
  destruct p as [[v|vs]|k v]; cbn [pres_ddef reload_pres].
  - reflexivity.
  - rewrite load_def_list. destruct (plains_map vs) as [-> ->]. reflexivity.
  - cbn [Serialize.load_def mapM fst snd]. destruct (load_item (Some k) v); reflexivity.
Qed.

Lemma load_item_unwrap key v : load_item key (unwrap1 v) = load_item key v.
Proof. unfold Serialize.load_item. rewrite vals_unwrap. reflexivity. Qed.

Lemma dict_entries_keys rs : forallb is_dict rs = true -> map fst (dict_entries rs) = map pres_key rs.
Proof.
  induction rs as [|[v|k v] rs IH]; intros H; [reflexivity | discriminate |].
  cbn [dict_entries flat_map app map fst pres_key]. f_equal. exact (IH H).
Qed.

Lemma dict_entries_reload rs : forallb is_dict rs = true ->
  mapM (fun kv : str * mval => load_item (Some (fst kv)) (snd kv))
       (map (fun kv => (fst kv, unwrap1 (snd kv))) (dict_entries rs)) = mapM reload_pres rs.
Proof.
  induction rs as [|[v|k v] rs IH]; intros H; [reflexivity | discriminate |].
  cbn [dict_entries flat_map app map mapM fst snd reload_pres]. rewrite load_item_unwrap. f_equal.
  unfold dict_entries in IH. rewrite (IH H). reflexivity.
Qed.

Lemma written_reload rs d' :
  nodupb (map pres_key rs) = true -> items_written rs = Ok d' ->
  load_def d' = obind (mapM reload_pres rs) mk_items.
Proof.
  intros Hk H. destruct rs as [|x [|y rest]]; cbn [items_written] in H.
  - discriminate.
  - injection H as <-. rewrite load_pres_ddef. cbn [mapM]. destruct (reload_pres x); reflexivity.
  - remember (x :: y :: rest) as rs eqn:Ers.
    destruct (existsb is_dict rs && existsb (fun p => negb (is_dict p)) rs) eqn:Hmix; [discriminate|].
    destruct (forallb is_dict rs) eqn:Hall.
    + rewrite merge_nodup in H by (cbn [map app]; rewrite (dict_entries_keys _ Hall); exact Hk).
      injection H as <-. cbn [Serialize.load_def app]. rewrite (dict_entries_reload _ Hall). reflexivity.
    + (* no result is a dict: the first two both have the empty key *)
      rewrite (forallb_false_exists _ _ Hall), andb_true_r in Hmix. subst rs.
      destruct x, y; try discriminate Hmix. discriminate Hk.
Qed.

Lemma items_reload l d' :
  Forall inv_item l -> forallb dom_item l = true -> nodupb (map item_key l) = true ->
  det_plain (DItems l) = Ok d' -> load_def d' = Ok (DItems l).
Proof.
  intros Hi Hd Hk H. rewrite det_plain_items in H. apply obind_ok in H as (rs & Hrs & H).
  rewrite Forall_forall in Hi. rewrite forallb_forall in Hd.
  assert (Hr : forall i, In i l -> forall p, item_plain i = Ok p -> reload_pres p = Ok i)
    by (intros i Hin p; apply item_reload; auto).
  rewrite filter_id in H.
  2:{ refine (mapM_Forall _ _ _ _ Hrs _). intros i Hin p Hp. rewrite (item_not_none i p); auto. }
  assert (Hkeys : map pres_key rs = map item_key l).
  { refine (mapM_map _ _ _ _ _ Hrs _). intros i _ p Hp.
    apply item_plain_ok in Hp as (o & vs & _ & _ & ->). apply pres_key_item. }
  rewrite <- Hkeys in Hk. rewrite (written_reload rs d' Hk H), (mapM_inverse _ reload_pres _ _ Hrs Hr).
  destruct l; [injection Hrs as <-; discriminate H | reflexivity].
Qed.

Lemma load_keyless v i : load_item None (MOne v) = Ok i -> exists t, i = mkItem None [] (Some [sigma_of false v]) t.
Proof. intros H. apply obind_ok in H as (t & _ & [= <-]). eauto. Qed.

Lemma load_def_val v r : load_def (DVal v) = Ok r -> exists t, r = DItems [mkItem None [] (Some [sigma_of false v]) t].
Proof. intros H. apply obind_ok in H as (i & Hi & [= <-]). apply load_keyless in Hi as [t ->]. eauto. Qed.

Lemma load_plain_single y r : load_def y = Ok r -> is_plain y = true -> plain_single r = true.
Proof. destruct y as [v| |]; try discriminate. intros H _. apply load_def_val in H as [t ->]. reflexivity. Qed.

Lemma load_not_null y r : load_def y = Ok r -> dom r = true -> is_null_def y = false.
Proof.
  destruct y as [[]| |]; try reflexivity. intros H. apply load_def_val in H as [t ->]. discriminate.
Qed.

(* the element-wise round trip is all that is needed: what the reader made of the written forms tells that the
   writer's filter of None results dropped none and that they are not all plain values *)
Lemma subs_reload l d' :
  (forall d, In d l -> forall y, det_plain d = Ok y -> load_def y = Ok d) ->
  forallb dom l = true -> existsb (fun s => negb (plain_single s)) l = true ->
  det_plain (DSubs l) = Ok d' -> load_def d' = Ok (DSubs l).
Proof.
  intros Hr Hd He H. rewrite det_plain_subs in H. apply obind_ok in H as (rs & Hrs & [= <-]).
  pose proof (mapM_inverse _ load_def _ _ Hrs Hr) as Hl. rewrite forallb_forall in Hd.
  rewrite filter_id.
  2:{ refine (mapM_Forall _ _ _ _ Hrs _). intros d Hin y Hy. rewrite (load_not_null y d); auto. }
  rewrite load_def_list. destruct (forallb is_plain rs) eqn:Ep.
  - rewrite forallb_forall in Ep. apply existsb_exists in He as (d & Hin & Hs).
    assert (Hall : Forall (fun d => plain_single d = true) l)
      by (refine (mapM_Forall _ _ _ _ Hl _); intros y Hy d' Hd'; apply (load_plain_single y); auto).
    rewrite Forall_forall in Hall. rewrite (Hall d Hin) in Hs. discriminate Hs.
  - rewrite Hl. destruct l; [discriminate He | reflexivity].
Qed.

(* C06_detection_reload: on the domain, from_definition reads what to_plain wrote as the same object; the invariant
   is all that is used of r having been loaded *)
Theorem plain_reload : forall (r : det T) d',
  inv r -> dom r = true -> det_plain r = Ok d' -> load_def d' = Ok r.
Proof.
  induction r as [l | l IH | | l] using det_ind'; intros d' Hi Hd H; try discriminate Hd;
    cbn [dom] in Hd; apply andb_true_iff in Hd as [Hd He].
  - exact (items_reload _ _ Hi Hd He H).
  - apply inv_subs in Hi. rewrite Forall_forall in IH, Hi. refine (subs_reload l d' _ Hd He H).
    rewrite forallb_forall in Hd. intros d Hin y. apply IH; auto.
Qed.

(* load_dets and dets_plain read and write each definition under its name *)
Definition named {A B} (f : A -> outcome B) (nd : str * A) : outcome (str * B) :=
  obind (f (snd nd)) (fun d => Ok (fst nd, d)).

Lemma named_ok {A B} (f : A -> outcome B) nd y : named f nd = Ok y -> f (snd nd) = Ok (snd y) /\ fst y = fst nd.
Proof. intros H. apply obind_ok in H as (d & Hd & [= <-]). split; [exact Hd | reflexivity]. Qed.

Lemma load_dets_ok defs c r : load_dets defs c = Ok r ->
  mapM (named load_def) defs = Ok (ds_dets r) /\
  ds_dets r <> [] /\ ds_cond r <> [].
Proof.
  unfold Serialize.load_dets. destruct c as [|c|cl]; [discriminate|..]; intros H;
    apply obind_ok in H as ([|nd ds] & Hds & H); try discriminate H.
  - injection H as <-. repeat split; [exact Hds | discriminate..].
  - destruct cl; [discriminate|]. injection H as <-. repeat split; [exact Hds | discriminate..].
Qed.

Lemma load_dets_written defs (r : dets T) :
  mapM (named load_def) defs = Ok (ds_dets r) ->
  ds_dets r <> [] -> ds_cond r <> [] ->
  load_dets defs (match ds_cond r with [c] => COne c | l => CMany l end) = Ok r.
Proof.
  destruct r as [ds cl]. cbn [ds_dets ds_cond]. intros Hds Hne Hcl. unfold Serialize.load_dets. unfold named in Hds.
  destruct cl as [|c [|c2 cl]]; [contradiction | ..]; rewrite Hds; destruct ds; (contradiction || reflexivity).
Qed.

(* C06_idempotent_partial, for any detections section that has a definition and a condition *)
Theorem dets_plain_reload (r : dets T) defs' c' :
  Forall (fun nd => inv (snd nd)) (ds_dets r) -> ds_dets r <> [] -> ds_cond r <> [] ->
  dom_dets r = true -> dets_plain r = Ok (defs', c') -> load_dets defs' c' = Ok r.
Proof.
  intros Hi Hne Hcl Hd Hp. rewrite Forall_forall in Hi. unfold dom_dets in Hd. rewrite forallb_forall in Hd.
  apply obind_ok in Hp as (out & Hout & [= <- <-]). apply load_dets_written; [|assumption..].
  refine (mapM_inverse _ _ _ _ Hout _). intros [n d] Hin [n' d'] H.
  apply named_ok in H as [H E]. unfold named. cbn [fst snd] in *. subst n'.
  rewrite (plain_reload _ _ (Hi _ Hin) (Hd _ Hin) H). reflexivity.
Qed.

Lemma dets_reload : forall defs c (r : dets T) defs' c',
  load_dets defs c = Ok r -> dom_dets r = true -> dets_plain r = Ok (defs', c') ->
  load_dets defs' c' = Ok r.
Proof.
  intros defs c r defs' c' Hl. apply load_dets_ok in Hl as (Hds & Hne & Hcl).
  apply dets_plain_reload; [|assumption..].
  refine (mapM_Forall _ _ _ _ Hds _). intros nd _ y Hy. apply named_ok in Hy as [Hy _]. exact (load_inv _ _ Hy).
Qed.

Lemma items_disabled (l : list (item T)) :
  existsb (fun i => match i_orig i with None => true | _ => false end) l = true -> is_err (mapM item_plain l) = true.
Proof.
  intros H. apply existsb_exists in H as (i & Hin & Hi). apply (mapM_err _ i _ Hin).
  unfold item_plain. destruct (i_orig i); [discriminate | reflexivity].
Qed.

Theorem disabled_fails : forall r : det T, has_disabled r = true -> is_err (det_plain r) = true.
Proof.
  induction r as [l | l IH | | l] using det_ind'; cbn [has_disabled]; intros H; [| |discriminate|].
  - rewrite det_plain_items. apply obind_err, items_disabled, H.
  - apply existsb_exists in H as (d & Hin & Hd). rewrite Forall_forall in IH.
    rewrite det_plain_subs. apply obind_err, (mapM_err _ d _ Hin), IH; assumption.
  - cbn [det_plain]. apply obind_err, items_disabled, H.
Qed.

End Main.

(* outside the domain the identity statement is false of the faithful model *)
Definition apply_any (f : option str) (ms : list mcls) (o : list sval) : outcome unit := Ok tt.
Definition rt_differs (defs : list (str * ddef)) (c : cval) : Prop :=
  exists r d', load_dets apply_any defs c = Ok r /\ dets_plain r = Ok d' /\
               load_dets apply_any (fst d') (snd d') <> Ok r.

(* a closed witness is checked by running it: load, write, load what was written, compare *)
Ltac run_witness :=
  eexists _, _; split; [vm_compute; reflexivity|]; split; [vm_compute; reflexivity|]; vm_compute; discriminate.

(* D10: sel: {f: '\\*'}  (literal backslash followed by a wildcard) is written as '\*' *)
Lemma refuted_backslash : rt_differs [([115], DMap [([102], MOne (PStrV [92; 92; 42]))])] (COne [115]).
Proof. run_witness. Qed.

(* modifier aliases: {f|re|i: a, f|re|ignorecase: b} is written as {f|re|ignorecase|all: [a, b]} *)
Lemma refuted_alias_merge :
  rt_differs [([115], DMap [([102;124;114;101;124;105], MOne (PStrV [97]));
                            ([102;124;114;101;124;105;103;110;111;114;101;99;97;115;101], MOne (PStrV [98]))])] (COne [115]).
Proof. run_witness. Qed.

(* the unbound null keyword next to another item is dropped: {'': null, f: x} is written as {f: x} *)
Lemma refuted_null_keyword :
  rt_differs [([115], DMap [([], MOne PNull); ([102], MOne (PStrV [120]))])] (COne [115]).
Proof. run_witness. Qed.

(* nested one-value lists: [[a], [b]] is written as [a, b] and read back as one keyword item *)
Lemma refuted_nested_singles :
  rt_differs [([115], DList [DList [DVal (PStrV [97])]; DList [DVal (PStrV [98])]])] (COne [115]).
Proof. run_witness. Qed.

(* the premises are inhabited by a detection that uses every shape *)
Definition sample_defs : list (str * ddef) :=
  [([115], DMap [([102;124;99;111;110;116;97;105;110;115;124;97;108;108], MMany [PStrV [97;42]; PStrV [92;120]]);
                 ([103;124;114;101;124;115], MOne (PStrV [92;92;42]));
                 ([104], MMany []); ([105], MOne PNull)]);
   ([117], DMap [([], MMany [PInt 1; PFloatInt 2; PBool true])]);
   ([116], DList [DList [DVal (PStrV [97]); DVal PNull]; DMap [([102], MOne (PFloat [49;46;53]))]; DVal (PStrV [98])])].
Lemma premises_inhabited :
  exists r d', load_dets apply_any sample_defs (CMany [[115]; [116]]) = Ok r /\ dom_dets r = true /\
               dets_plain r = Ok d'.
Proof. eexists _, _. split; [vm_compute; reflexivity|]. split; vm_compute; reflexivity. Qed.

Lemma str_eqb_app_ne k s : s <> [] -> str_eqb k (k ++ s) = false.
Proof.
  intros Hs. rewrite <- (app_nil_r k) at 1. rewrite str_eqb_app_l. destruct s; [contradiction | reflexivity].
Qed.

(* key|all links its values by AND, which is what two items of one mapping mean *)
Lemma merge_two_singles k a b :
  infixb s_neq k = false -> infixb s_all k = false ->
  merge_all [] [(k, MOne a); (k, MOne b)] = Ok [(k ++ s_all, MMany [a; b])].
Proof.
  intros Hn Ha. assert (E : str_eqb k (k ++ s_all) = false) by (apply str_eqb_app_ne; discriminate).
  cbn [merge_all merge_step md_get md_set obind]. rewrite str_eqb_refl, Hn, Ha, E.
  cbn [md_get md_set md_del orb is_empty_list unwrap1 is_many obind]. rewrite str_eqb_refl. reflexivity.
Qed.

Lemma merge_neq_refused k v1 v2 md :
  infixb s_neq k = true -> md_get k md = Some v1 -> merge_step md (k, v2) = SigmaErr E_Value.
Proof. intros Hn Hg. unfold merge_step. rewrite Hg, Hn. reflexivity. Qed.

Lemma get_del_other k k2 md : str_eqb k k2 = false -> md_get k2 (md_del k md) = md_get k2 md.
Proof.
  intros Hne. induction md as [|[k' v'] md IH]; [reflexivity|].
  cbn [md_del md_get]. destruct (str_eqb k' k) eqn:E.
  - apply str_eqb_eq in E as ->. rewrite Hne. reflexivity.
  - cbn [md_get]. rewrite IH. reflexivity.
Qed.

Lemma del_set_comm k ak w md : str_eqb k ak = false -> md_del k (md_set ak w md) = md_set ak w (md_del k md).
Proof.
  intros Hne. rewrite str_eqb_sym in Hne. induction md as [|[k' v'] md IH]; cbn [md_set md_del].
  - rewrite Hne. reflexivity.
  - destruct (str_eqb k' ak) eqn:Ea.
    + apply str_eqb_eq in Ea as ->. rewrite Hne. cbn [md_del md_set]. rewrite Hne, str_eqb_refl. reflexivity.
    + cbn [md_del]. destruct (str_eqb k' k); [reflexivity|]. cbn [md_set]. rewrite Ea, IH. reflexivity.
Qed.

Lemma not_many_one v : is_many (unwrap1 v) = false -> exists x, vals_of v = [x].
Proof. destruct v as [x|[|x [|y l]]]; cbn; intros H; try discriminate; eauto. Qed.

Lemma andb_swap a b c : a && (b && c) = b && (a && c).
Proof. destruct a, b; reflexivity. Qed.

Section MergeMeaning.
Variable h : list str -> pv -> bool.
Notation den_entry := (den_entry h).
Notation den := (den_map h).

Lemma den_cons kv md : den (kv :: md) = den_entry kv && den md.
Proof. reflexivity. Qed.

Lemma den_app a b : den (a ++ b) = den a && den b.
Proof. apply forallb_app. Qed.

Lemma den_get_del k md :
  den md = match md_get k md with Some ev => den_entry (k, ev) | None => true end && den (md_del k md).
Proof.
  induction md as [|[k' v'] md IH]; [reflexivity|].
  cbn [md_get md_del]. destruct (str_eqb k' k) eqn:E.
  - apply str_eqb_eq in E as ->. reflexivity.
  - rewrite !den_cons, IH. apply andb_swap.
Qed.

Lemma den_set k w md : den (md_set k w md) = den_entry (k, w) && den (md_del k md).
Proof.
  induction md as [|[k' v'] md IH]; [reflexivity|].
  cbn [md_set md_del]. destruct (str_eqb k' k) eqn:E.
  - apply str_eqb_eq in E as ->. reflexivity.
  - rewrite !den_cons, IH. apply andb_swap.
Qed.

Lemma den_entry_pair k v :
  den_entry (k, v) = if segs_all k then forallb (h (base_key k)) (vals_of v) else existsb (h (base_key k)) (vals_of v).
Proof. reflexivity. Qed.

Lemma den_entry_moved k v : den_entry (k ++ s_all, v) = forallb (h (base_key k)) (vals_of v).
Proof. rewrite den_entry_pair, segs_all_app, base_key_app. reflexivity. Qed.

Lemma merge_step_sound md k v md' :
  key_wf k -> merge_step md (k, v) = Ok md' -> den md' = den md && den_entry (k, v).
Proof.
  unfold key_wf, merge_step. intros Hwf. rewrite Hwf, (den_get_del k md). destruct (md_get k md) as [ev|].
  2:{ intros [= <-]. rewrite den_set. apply andb_comm. }
  destruct (infixb s_neq k); [discriminate|]. destruct (is_empty_list v || is_empty_list ev); [discriminate|].
  destruct (segs_all k) eqn:Hall.
  - (* key with all: the value lists are concatenated *)
    intros [= <-]. rewrite den_set, !den_entry_pair, Hall. unfold aslist. cbn [vals_of].
    rewrite forallb_app, <- !andb_assoc. f_equal. apply andb_comm.
  - (* two single values x, y: moved to key|all, and the entry of key is deleted *)
    destruct (is_many (unwrap1 ev) || is_many (unwrap1 v)) eqn:Hm; [discriminate|].
    apply orb_false_iff in Hm as [Hm1 Hm2].
    destruct (not_many_one _ Hm1) as [x Hx], (not_many_one _ Hm2) as [y Hy].
    unfold aslist. rewrite !vals_unwrap, Hx, Hy. intros H.
    rewrite !den_entry_pair, Hall, Hx, Hy. cbn [existsb]. rewrite !orb_false_r.
    assert (Hne : str_eqb k (k ++ s_all) = false) by (apply str_eqb_app_ne; discriminate).
    rewrite (den_get_del (k ++ s_all) (md_del k md)), get_del_other by exact Hne.
    destruct (md_get (k ++ s_all) md) as [mak|]; injection H as <-;
      rewrite (del_set_comm _ _ _ _ Hne), den_set, !den_entry_moved; cbn [vals_of app];
      rewrite ?forallb_app; cbn [forallb andb]; rewrite andb_true_r, <- !andb_assoc.
    + rewrite andb_swap. do 2 f_equal. apply andb_comm.
    + f_equal. apply andb_comm.
Qed.

Theorem merge_sound : forall es md0 md,
  Forall (fun kv => key_wf (fst kv)) es -> merge_all md0 es = Ok md -> den md = den md0 && den es.
Proof.
  induction es as [|[k v] es IH]; intros md0 md Hwf H; cbn [merge_all] in H.
  - injection H as <-. symmetry. apply andb_true_r.
  - apply obind_ok in H as (md1 & H1 & H2). apply Forall_cons_iff in Hwf as [Hk Hwf].
    rewrite (IH _ _ Hwf H2), (merge_step_sound _ _ _ _ Hk H1), den_cons. symmetry. apply andb_assoc.
Qed.
End MergeMeaning.

Lemma den_unwrap h md : den_map h (map (fun kv => (fst kv, unwrap1 (snd kv))) md) = den_map h md.
Proof.
  unfold den_map. induction md as [|[k v] md IH]; [reflexivity|].
  cbn [map forallb]. rewrite IH. unfold den_entry. cbn [fst snd]. rewrite vals_unwrap. reflexivity.
Qed.

(* the mapping written by SigmaDetection.to_plain for all-dict results means the AND of the items' entries *)
Theorem merge_written_sound h es md :
  Forall (fun kv => key_wf (fst kv)) es -> merge_all [] es = Ok md ->
  den_map h (map (fun kv => (fst kv, unwrap1 (snd kv))) md) = den_map h es.
Proof. intros Hwf H. rewrite den_unwrap. exact (merge_sound h es [] md Hwf H). Qed.
