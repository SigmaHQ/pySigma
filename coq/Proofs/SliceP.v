(* SigmaString.__getitem__ (Model/Slice.v) on items (C05): what a slice contains, and the prefix,
   suffix and strip cases. *)
From Coq Require Import ZArith List Bool Lia.
From PS Require Import Base.Chars Base.Outcome Model.SString Model.Slice Spec.Items Proofs.SStringP.
Import ListNotations.
Local Open Scope Z_scope.

Lemma items_snoc r p : items (r ++ [p]) = items r ++ part_items p.
Proof. rewrite items_app, items_cons. f_equal. apply app_nil_r. Qed.

Lemma slen_items v : slen v = length (items v).
Proof.
  induction v as [|p v IH]; [reflexivity|]. rewrite items_cons, app_length. simpl. rewrite IH.
  destruct p; simpl; try rewrite map_length; reflexivity.
Qed.

Lemma zlen_map {A B} (f : A -> B) l : zlen (map f l) = zlen l.
Proof. unfold zlen. rewrite map_length. reflexivity. Qed.

Definition ole (n : Z) (stop : option Z) : Prop :=
  match stop with Some k => n <= k | None => True end.

Lemma oz_lt_ole stop n : oz_lt stop n = false <-> ole n stop.
Proof. destruct stop; simpl; [apply Z.ltb_ge | tauto]. Qed.

Lemma ole_sub n m stop : ole n stop -> ole (n - m) (oz_sub stop m).
Proof. destruct stop; simpl; lia. Qed.

Definition otake (stop : option Z) (l : list item) : list item :=
  match stop with Some k => firstn (Z.to_nat k) l | None => l end.

Lemma otake_nil stop : otake stop [] = [].
Proof. destruct stop; [apply firstn_nil | reflexivity]. Qed.

Lemma otake_all stop a : ole (zlen a) stop -> otake stop a = a.
Proof. destruct stop; [|reflexivity]. unfold zlen. simpl. intros H. apply firstn_all2. lia. Qed.

Lemma otake_app stop a l : otake stop (a ++ l) = otake stop a ++ otake (oz_sub stop (zlen a)) l.
Proof.
  destruct stop as [k|]; [|reflexivity]. unfold zlen. simpl. rewrite firstn_app. do 2 f_equal. lia.
Qed.

Lemma skipn_otake_app start stop a l : ole (zlen a) stop ->
  skipn (Z.to_nat start) (otake stop (a ++ l)) =
  skipn (Z.to_nat start) a ++ skipn (Z.to_nat (start - zlen a)) (otake (oz_sub stop (zlen a)) l).
Proof.
  intros H. rewrite otake_app, otake_all, skipn_app by exact H. do 2 f_equal. unfold zlen. lia.
Qed.

Lemma take_end_items v : forall stop result,
  items (take_end v stop result) = items result ++ otake stop (items v).
Proof.
  induction v as [|e v IH]; intros stop result; cbn [take_end].
  - rewrite otake_nil, app_nil_r. reflexivity.
  - destruct (oz_gt0 stop) eqn:E0.
    2: { destruct stop as [k|]; [|discriminate]. apply Z.ltb_ge in E0. simpl.
         replace (Z.to_nat k) with 0%nat by lia. rewrite app_nil_r. reflexivity. }
    assert (H1 : ole 1 stop) by (destruct stop; [apply Z.ltb_lt in E0; simpl; lia | exact I]).
    rewrite items_cons, otake_app. destruct e as [s| | |n].
    2-4: rewrite IH, items_snoc, <- app_assoc, (otake_all stop (part_items _)) by exact H1; reflexivity.
    rewrite IH, items_snoc, <- app_assoc. cbn [part_items]. rewrite zlen_map.
    do 2 f_equal. destruct (oz_lt stop (zlen s)) eqn:El.
    + destruct stop as [k|]; [|discriminate]. symmetry. apply firstn_map.
    + symmetry. apply otake_all, oz_lt_ole. rewrite zlen_map. exact El.
Qed.

Lemma find_start_nonpos v start stop result : start <= 0 ->
  find_start v start stop result = Cont result start stop v.
Proof.
  intros H. destruct v; [reflexivity|]. cbn [find_start].
  destruct (Z.ltb_spec 0 start); [lia | reflexivity].
Qed.

(* The invariant of the first loop over a value with items l, stated through what the second loop makes of
   its result (take_end_items): together they produce the items of l from start on and below stop. *)
Definition start_found (start : Z) (stop : option Z) (result : sstring) (l : list item) (x : step1) : Prop :=
  match x with
  | Ret _ => stop <> None
  | Cont result' _ stop' rest =>
      items result' ++ otake stop' (items rest) = items result ++ skipn (Z.to_nat start) (otake stop l)
  end.

Lemma found_skip a start stop result l x : zlen a <= start -> ole start stop ->
  start_found (start - zlen a) (oz_sub stop (zlen a)) result l x ->
  start_found start stop result (a ++ l) x.
Proof.
  intros Ha Hs. destruct x as [r|result' start' stop' rest]; simpl.
  - destruct stop; [discriminate | intros H _; exact (H eq_refl)].
  - intros ->. rewrite skipn_otake_app by (destruct stop; simpl in *; lia).
    rewrite (skipn_all2 a) by (unfold zlen in Ha; lia). reflexivity.
Qed.

Lemma find_start_found v : forall start stop result, ole start stop ->
  start_found start stop result (items v) (find_start v start stop result).
Proof.
  induction v as [|e v IH]; intros start stop result Hs; cbn [find_start].
  - simpl. rewrite otake_nil, skipn_nil. reflexivity.
  - destruct (Z.ltb_spec 0 start) as [Hpos|Hle].
    2: { simpl. replace (Z.to_nat start) with 0%nat by lia. reflexivity. }
    rewrite items_cons. destruct e as [s| | |n].
    2-4: apply (found_skip [_]); [unfold zlen; simpl; lia | exact Hs |]; apply IH, ole_sub, Hs.
    cbn [part_items]. pose proof (zlen_map Lit s) as Hl.
    destruct (Z.ltb_spec start (zlen s)) as [Hin|Hout].
    + destruct (oz_lt stop (zlen s)) eqn:El; [destruct stop; discriminate|].
      rewrite find_start_nonpos by lia. simpl.
      rewrite items_snoc, <- app_assoc, skipn_otake_app by (apply oz_lt_ole; rewrite Hl; exact El).
      rewrite Hl. replace (Z.to_nat (start - zlen s)) with 0%nat by lia.
      cbn [part_items skipn]. unfold zskipn. rewrite skipn_map. reflexivity.
    + rewrite <- Hl. apply found_skip; [lia | exact Hs |]. apply IH, ole_sub, Hs.
Qed.

Definition norm_index (len x : Z) : Z := if x <? 0 then len + x else x.

Lemma norm_index_nonneg len x : 0 <= x -> norm_index len x = x.
Proof. unfold norm_index. destruct (Z.ltb_spec x 0); lia. Qed.
Lemma norm_index_neg len x : x < 0 -> norm_index len x = len + x.
Proof. unfold norm_index. destruct (Z.ltb_spec x 0); lia. Qed.

(* Unless the first loop returns early (both bounds inside one plain part, whose substring is then
   parsed again), a slice has the items from start on and below stop, negative bounds counting from
   the end. *)
Theorem getitem_items v a b r :
  let len := Z.of_nat (slen v) in
  let start := norm_index len (match a with Some x => x | None => 0 end) in
  let stop := option_map (norm_index len) b in
  (forall x, find_start v start stop [] <> Ret x) ->
  getitem v a b = Ok r -> items r = skipn (Z.to_nat start) (otake stop (items v)).
Proof.
  intros len start stop Hret. unfold getitem. cbv zeta. fold len.
  fold (norm_index len (match a with Some x => x | None => 0 end)). fold start.
  change (match b with Some x => Some (if x <? 0 then len + x else x) | None => None end) with stop.
  clearbody start stop.
  assert (Hlen : (length (otake stop (items v)) <= Z.to_nat len)%nat).
  { unfold len. rewrite slen_items, Nat2Z.id. destruct stop; simpl; [rewrite firstn_length; lia | apply le_n]. }
  destruct ((match stop with Some y => y <? start | None => false end) || (len <=? start)) eqn:E1.
  { intros [= <-]. symmetry. apply skipn_all2. apply orb_true_iff in E1 as [E1|E1].
    - destruct stop as [y|]; [|discriminate]. apply Z.ltb_lt in E1. simpl. rewrite firstn_length. lia.
    - apply Z.leb_le in E1. lia. }
  apply orb_false_iff in E1 as [E1 _].
  destruct ((start <? 0) || match stop with Some y => (y <? 0) || (len <? y) | None => false end);
    [discriminate|].
  assert (Hs : ole start stop) by (destruct stop; [apply Z.ltb_ge, E1 | exact I]).
  pose proof (find_start_found v start stop [] Hs) as Hf.
  destruct (find_start v start stop []) as [x|result start' stop' rest]; [destruct (Hret x eq_refl)|].
  intros [= <-]. rewrite take_end_items. exact Hf.
Qed.

(* Among the four instances are the slices the backend takes to strip wildcards: v[:-1] for startswith, v[1:] for
   endswith, v[1:-1] of a value that starts with a wildcard for contains. *)
Theorem slice_prefix v k r : 0 <= k <= Z.of_nat (slen v) ->
  getitem v None (Some k) = Ok r -> items r = firstn (Z.to_nat k) (items v).
Proof.
  intros Hk H. apply getitem_items in H.
  - rewrite H. cbn [option_map]. rewrite !norm_index_nonneg by lia. reflexivity.
  - intros x. rewrite find_start_nonpos by reflexivity. discriminate.
Qed.

Theorem slice_prefix_neg v k r : 0 < k <= Z.of_nat (slen v) ->
  getitem v None (Some (- k)) = Ok r -> items r = firstn (length (items v) - Z.to_nat k) (items v).
Proof.
  intros Hk H. apply getitem_items in H.
  - rewrite H. cbn [option_map]. rewrite (norm_index_nonneg _ 0), (norm_index_neg _ (- k)) by lia.
    cbn [Z.to_nat skipn otake]. f_equal. rewrite <- slen_items. lia.
  - intros x. rewrite find_start_nonpos by reflexivity. discriminate.
Qed.

Theorem slice_suffix v k r : 0 <= k ->
  getitem v (Some k) None = Ok r -> items r = skipn (Z.to_nat k) (items v).
Proof.
  intros Hk H. apply getitem_items in H; rewrite norm_index_nonneg in * by exact Hk.
  - exact H.
  - intros x Hx. pose proof (find_start_found v k None [] I) as F.
    cbn [option_map] in Hx. rewrite Hx in F. exact (F eq_refl).
Qed.

Theorem slice_strip p v r : (match p with PStr _ => False | _ => True end) ->
  getitem (p :: v) (Some 1) (Some (-1)) = Ok r -> items r = removelast (tl (items (p :: v))).
Proof.
  intros Hp H.
  assert (Hi : exists i, items (p :: v) = i :: items v)
    by (destruct p; [contradiction | eexists; reflexivity..]).
  assert (Hl : slen (p :: v) = S (slen v)) by (destruct p; [contradiction | reflexivity..]).
  apply getitem_items in H; rewrite Hl in *; cbn [option_map] in *;
    rewrite (norm_index_nonneg _ 1), (norm_index_neg _ (-1)) in * by lia.
  - destruct Hi as [i Hi]. rewrite H, Hi, removelast_firstn_len. cbn [otake tl].
    replace (Z.to_nat (Z.of_nat (S (slen v)) + -1)) with (length (items v)) by (rewrite slen_items; lia).
    destruct (length (items v)); reflexivity.
  - intros x. destruct p; [contradiction|..]; cbn [find_start]; change (0 <? 1) with true; cbv iota;
      rewrite find_start_nonpos by lia; discriminate.
Qed.

(* a slice with both bounds inside one plain part parses that substring again: `a*b`[1:2] is a wildcard *)
Theorem slice_inner_refuted : exists v r,
  getitem v (Some 1) (Some 2) = Ok r /\ items r <> firstn 1 (skipn 1 (items v)).
Proof. exists [PStr [97%N; c_star; 98%N]]. eexists. split; [reflexivity|]. vm_compute. discriminate. Qed.
