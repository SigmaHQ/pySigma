(* The operator and the slice that str_op (Model/StrOp.v) chooses for a string value denote the value's own
   pattern (theorems str_op_pattern, str_op_sem). *)
From Coq Require Import ZArith List Bool Lia.
From PS Require Import Base.Outcome Model.SString Model.Slice Model.StrOp Spec.Items Proofs.SStringP Proofs.SliceP.
Import ListNotations.

(* the pattern an operator with its (sliced) value denotes *)
Definition pattern (o : sop) (l : list item) : list item :=
  match o with
  | OpStartswith => l ++ [Multi]
  | OpEndswith => Multi :: l
  | OpContains => Multi :: l ++ [Multi]
  | OpWildMatch | OpEq => l
  end.

Lemma ends_multi_snoc v : ends_multi v = true -> exists l, items v = l ++ [Multi] /\ (1 <= slen v)%nat.
Proof.
  unfold ends_multi. destruct (rev v) as [|[] r] eqn:E; try discriminate. intros _.
  apply (f_equal (@rev _)) in E. rewrite rev_involutive in E. subst v. cbn [rev].
  exists (items (rev r)). rewrite slen_items, items_app, app_length. split; [reflexivity|simpl; lia].
Qed.

Lemma wild_multi_cons l c s :
  wild_match (Multi :: l) (c :: s) = wild_match l (c :: s) || wild_match (Multi :: l) s.
Proof. reflexivity. Qed.

Lemma wild_multi_ext l m : (forall s, wild_match l s = wild_match m s) ->
  forall s, wild_match (Multi :: l) s = wild_match (Multi :: m) s.
Proof.
  intros H s. induction s as [|c s IH].
  - cbn. rewrite H. reflexivity.
  - rewrite !wild_multi_cons, H, IH. reflexivity.
Qed.

Lemma wild_multi_multi l s : wild_match (Multi :: Multi :: l) s = wild_match (Multi :: l) s.
Proof.
  induction s as [|c s IH].
  - cbn. apply orb_false_r.
  - rewrite (wild_multi_cons (Multi :: l)), IH, wild_multi_cons, <- orb_assoc, orb_diag. reflexivity.
Qed.

Lemma str_op_inv K v o r : str_op K v = (o, r) ->
  match o with
  | OpStartswith => has_sw K = true /\ ends_multi v = true /\ getitem v None (Some (-1)%Z) = r
  | OpEndswith => has_ew K = true /\ starts_multi v = true /\ getitem v (Some 1%Z) None = r
  | OpContains => has_ct K = true /\ starts_multi v = true /\ ends_multi v = true /\ getitem v (Some 1%Z) (Some (-1)%Z) = r
  | OpWildMatch => has_wm K = true /\ Ok v = r
  | OpEq => Ok v = r
  end.
Proof.
  unfold str_op.
  (* each test either decides - then its conjuncts are the claim - or leaves the choice to the next *)
  destruct (has_sw K && ends_multi v && _) eqn:E1;
    [|destruct (has_ew K && starts_multi v && _) eqn:E2;
      [|destruct (has_ct K && starts_multi v && ends_multi v && _) eqn:E3;
        [|destruct (has_wm K && contains_special v) eqn:E4]]];
    intros [= <- <-]; rewrite ?andb_true_iff in *; tauto.
Qed.

Definition has_op (K : opcfg) (o : sop) : bool :=
  match o with
  | OpStartswith => has_sw K | OpEndswith => has_ew K | OpContains => has_ct K | OpWildMatch => has_wm K
  | OpEq => true
  end.

Lemma str_op_has K v o x : str_op K v = (o, x) -> has_op K o = true.
Proof. intros H. apply str_op_inv in H. destruct o; try apply H. reflexivity. Qed.

Theorem str_op_pattern K v o x : str_op K v = (o, Ok x) ->
  pattern o (items x) = items v \/
  (* degenerate: the value is a single '*' rendered as contains "" *)
  (o = OpContains /\ items v = [Multi] /\ items x = []).
Proof.
  intros H. apply str_op_inv in H. destruct o; cbn [pattern].
  - destruct H as [_ [Ee Hx]]. left. destruct (ends_multi_snoc v Ee) as [l [Hl Hn]].
    pose proof (slice_prefix_neg v 1 x ltac:(lia) Hx) as Hs.
    rewrite Hl in Hs. change (Z.to_nat 1) with 1%nat in Hs.
    rewrite Nat.sub_1_r, <- removelast_firstn_len, removelast_last in Hs.
    rewrite Hs, Hl. reflexivity.
  - destruct H as [_ [Es Hx]]. left. destruct v as [|[] v']; try discriminate.
    rewrite (slice_suffix _ 1 x ltac:(lia) Hx). reflexivity.
  - destruct H as [_ [Es [Ee Hx]]]. destruct v as [|[] v']; try discriminate.
    pose proof (slice_strip PMulti v' x I Hx) as Hs.
    destruct (ends_multi_snoc _ Ee) as [l [Hl _]].
    change (items (PMulti :: v')) with (Multi :: items v') in *. cbn [tl] in Hs.
    destruct l as [|i l'].
    + (* the leading wildcard is also the trailing one *)
      right. injection Hl as Hl. rewrite Hl in *. auto.
    + left. injection Hl as <- Hl. rewrite Hl, removelast_last in Hs. rewrite Hs, Hl. reflexivity.
  - destruct H as [_ [= ->]]. left. reflexivity.
  - injection H as ->. left. reflexivity.
Qed.

Theorem str_op_sem K v o x : str_op K v = (o, Ok x) ->
  forall s, wild_match (pattern o (items x)) s = wild_match (items v) s.
Proof.
  intros H s. destruct (str_op_pattern K v o x H) as [E|[-> [Ev Ex]]].
  - rewrite E. reflexivity.
  - rewrite Ev, Ex. apply wild_multi_multi.
Qed.
