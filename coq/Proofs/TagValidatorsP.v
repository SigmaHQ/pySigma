(* C19 - the tag validators of Model/TagValidators.v.  A run is the flat_map of tv_check over the source tags, which
   come back as given (validate_tags_char); the theorems are readings of that equation. *)
From Coq Require Import NArith List Bool Arith Permutation.
From PS Require Import Base.Chars Model.TagValidators Proofs.CharsP.
Import ListNotations.
Open Scope N_scope.

Lemma validate_tags_char vs : forall tags,
  validate_tags vs tags = (flat_map (fun v => tv_check v tags) vs, tags).
Proof.
  induction vs as [|v vs IH]; intros tags; simpl; [reflexivity|]. rewrite IH. reflexivity.
Qed.

(* tv_validate returns its argument as the tags afterwards, so this holds of the model by construction; that the
   code's validators leave the tags alone is what the run-time comparison of the tags after the call observes *)
Theorem tags_unchanged vs tags : snd (validate_tags vs tags) = tags.
Proof. rewrite validate_tags_char. reflexivity. Qed.

Theorem tags_order_independent vs vs' tags :
  Permutation vs vs' ->
  Permutation (fst (validate_tags vs tags)) (fst (validate_tags vs' tags)) /\
  snd (validate_tags vs tags) = snd (validate_tags vs' tags).
Proof.
  intros P. rewrite !validate_tags_char. split; [apply Permutation_flat_map, P | reflexivity].
Qed.

Lemma in_strs_In n l : in_strs n l = true <-> In n l.
Proof. exact (existsb_str_In n l). Qed.

(* the three TLP validators run validate_tag of their common base class with their own labels; no other
   validator returns a TLP issue *)
Lemma tlp_issue_In v tags t :
  In (TITlp t) (tv_check v tags) <->
  In t tags /\ t_ns t = s_tlp /\ exists allowed, tlp_allowed v = Some allowed /\ ~ In (t_name t) allowed.
Proof.
  assert (X : forall allowed,
    In (TITlp t) (flat_map (fun t0 => if str_eqb (t_ns t0) s_tlp && negb (in_strs (t_name t0) allowed)
                                      then [TITlp t0] else []) tags) <->
    In t tags /\ t_ns t = s_tlp /\ ~ In (t_name t) allowed).
  { intros allowed.
    rewrite in_flat_map, <- in_strs_In, not_true_iff_false, <- negb_true_iff, <- str_eqb_eq, <- andb_true_iff.
    split.
    - intros (t0 & Ht0 & H). destruct (_ && _) eqn:E; [|destruct H]. destruct H as [[= ->]|[]]. auto.
    - intros [Ht E]. exists t. rewrite E. split; [exact Ht | left; reflexivity]. }
  destruct v; cbn [tv_check tlp_allowed]; rewrite ?X.
  2, 3, 4: split; [intros (Ht & Hns & Hn); eauto | intros (Ht & Hns & allowed & [= <-] & Hn); auto].
  all: split; [intros (t0 & _ & H)%in_flat_map | intros (_ & _ & allowed & [=] & _)].
  - destruct (fmt_ok t0); simpl in H; intuition discriminate.
  - destruct (_ <? _)%nat; simpl in H; intuition discriminate.
  - destruct (in_strs _ _); simpl in H; intuition discriminate.
Qed.

Theorem tlp_exact vs tags t :
  In (TITlp t) (fst (validate_tags vs tags)) <->
  In t tags /\ t_ns t = s_tlp /\
  exists v allowed, In v vs /\ tlp_allowed v = Some allowed /\ ~ In (t_name t) allowed.
Proof.
  rewrite validate_tags_char. cbn [fst]. rewrite in_flat_map. split.
  - intros (v & Hv & (Ht & Hns & allowed & Ea & Hn)%tlp_issue_In). eauto 8.
  - intros (Ht & Hns & v & allowed & Hv & Ea & Hn). exists v. split; [exact Hv|]. apply tlp_issue_In. eauto.
Qed.
