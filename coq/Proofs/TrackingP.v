(* C20 - field mapping tracking and the strict-mapping check do not depend on the iteration order of the
   tracking sets: final field names, error message and the source->targets dict are equal, the reverse
   dict (target->sources) is equal as a function of its keys. *)
From Coq Require Import NArith List Bool Permutation.
From PS Require Import Base.Chars Model.Determinism Proofs.CharsP Proofs.DeterminismP.
Import ListNotations.
Open Scope N_scope.

Lemma lookup_dupd {V} k t (g : V -> V) m :
  lookup k (dupd t g m) = if str_eqb k t then option_map g (lookup k m) else lookup k m.
Proof.
  unfold dupd. induction m as [|[k' v] m IH]; simpl; [now destruct (str_eqb k t)|].
  destruct (str_eqb_spec t k') as [->|N]; simpl; rewrite IH.
  - now destruct (str_eqb k k').
  - destruct (str_eqb_spec k k') as [->|_]; [|reflexivity]. destruct (str_eqb_spec k' t); congruence.
Qed.

Lemma lookup_dupd_default {V} (d : V) k t g m :
  lookup k (dupd_default d t g m) = if str_eqb k t then Some (g (aget d t m)) else lookup k m.
Proof.
  unfold dupd_default, aget. change (alookup t m) with (lookup t m). destruct (lookup t m) as [v|] eqn:E.
  - rewrite lookup_dupd. destruct (str_eqb_spec k t) as [->|_]; [now rewrite E | reflexivity].
  - rewrite lookup_app. simpl. destruct (str_eqb_spec k t) as [->|_]; [now rewrite E | now destruct (lookup k m)].
Qed.

Lemma lookup_ddel {V} k s (m : list (str * V)) :
  lookup k (ddel s m) = if str_eqb k s then None else lookup k m.
Proof.
  rewrite (str_eqb_sym k s). etransitivity; [apply (alookup_filter (fun x => negb (str_eqb s x)))|].
  destruct (str_eqb s k); reflexivity.
Qed.

Lemma lookup_fold_default {V} (d : V) g : (forall s, g (g s) = g s) ->
  forall l m k,
    lookup k (fold_left (fun m t => dupd_default d t g m) l m)
    = if smem k l then Some (g (aget d k m)) else lookup k m.
Proof.
  intros Hg. induction l as [|t l IH]; intros m k; simpl; [reflexivity|].
  rewrite IH. unfold aget at 1. rewrite !lookup_dupd_default.
  destruct (str_eqb_spec k t) as [->|_]; simpl; destruct (smem _ l); rewrite ?Hg; reflexivity.
Qed.

Lemma smem_ext l l' k : same_set l l' -> smem k l = smem k l'.
Proof. intros H. apply eq_true_iff_eq. rewrite !smem_In. apply H. Qed.

Lemma fold_default_ext {V} (d : V) g l l' m m' : (forall s, g (g s) = g s) ->
  same_set l l' -> (forall k, lookup k m = lookup k m') ->
  forall k, lookup k (fold_left (fun m t => dupd_default d t g m) l m)
          = lookup k (fold_left (fun m t => dupd_default d t g m) l' m').
Proof.
  intros Hg Hl Hm k. rewrite !lookup_fold_default by exact Hg. unfold aget. now rewrite (smem_ext l l' k Hl), !Hm.
Qed.

Lemma s_union_ext s t t' : same_set t t' -> s_union s t = s_union s t'.
Proof. intros H. apply norm_ext. intros x. rewrite !in_app_iff, (H x). tauto. Qed.
Lemma s_union_idem sfs s : s_union (s_union s sfs) sfs = s_union s sfs.
Proof. apply norm_ext. intros x. unfold s_union. rewrite !in_app_iff, norm_In, in_app_iff. tauto. Qed.
Lemma s_add_idem a s : s_add a (s_add a s) = s_add a s.
Proof. apply norm_ext. intros x. unfold s_add. simpl. rewrite norm_In. simpl. tauto. Qed.

Lemma dupd_comm {V} k1 k2 (g : V -> V) m : dupd k1 g (dupd k2 g m) = dupd k2 g (dupd k1 g m).
Proof.
  unfold dupd. rewrite !map_map. apply map_ext. intros [k v]. simpl.
  destruct (str_eqb k2 k) eqn:E2, (str_eqb k1 k) eqn:E1; simpl; rewrite ?E1, ?E2; reflexivity.
Qed.
Lemma dupd_ext {V} k (g g' : V -> V) m : (forall v, g v = g' v) -> dupd k g m = dupd k g' m.
Proof. intros H. apply map_ext. intros [k' v]. simpl. now rewrite H. Qed.

(* the same forward dict, and the same reverse dict up to the order of its entries: merge hands add_mapping the
   targets in iteration order, and new reverse entries are appended in that order *)
Definition R (st st' : tracking) : Prop :=
  fst st = fst st' /\ forall k, lookup k (snd st) = lookup k (snd st').

Lemma R_refl st : R st st.
Proof. split; reflexivity. Qed.

(* the second half of add_mapping - the entry of the source itself and the reverse entries of its targets - as a
   function of the pair the first half leaves, written with the model's let: add_mapping O (fm, tf) s t is
   add_source s t of that pair by conversion, and that is how add_mapping_R applies add_source_R *)
Definition add_source (s : str) (t : list str) (p : tracking) : tracking :=
  let '(fm, tf) := p in
  (match lookup s fm with
   | None => fm ++ [(s, norm t)]
   | Some _ => dupd s (fun ts => s_union ts t) fm
   end, fold_left (fun m x => dupd_default [] x (s_add s) m) t tf).

Lemma add_source_R s t t' p p' : R p p' -> same_set t t' -> R (add_source s t p) (add_source s t' p').
Proof.
  destruct p as [fm tf], p' as [fm' tf']. intros [E H] Ht. simpl in E, H. subst fm'. split; simpl.
  - rewrite (norm_ext t t' Ht). destruct (lookup s fm); [|reflexivity].
    apply dupd_ext. intros v. apply s_union_ext, Ht.
  - apply fold_default_ext; [intros; apply s_add_idem | exact Ht | exact H].
Qed.

(* the first half moves what was mapped to the source over to the targets; the set iteration only chooses the
   order of updates at different keys *)
Lemma add_mapping_R O O' st st' s t t' :
  R st st' -> same_set t t' -> R (add_mapping O st s t) (add_mapping O' st' s t').
Proof.
  destruct st as [fm tf], st' as [fm' tf']. intros [E Htf] Ht. simpl in E, Htf. subst fm'.
  apply (add_source_R s t t'); [|exact Ht].
  rewrite <- (Htf s). destruct (lookup s tf) as [sfs|]; [|split; [reflexivity | exact Htf]].
  split; simpl.
  - rewrite (fold_left_perm _ (fun _ _ _ => dupd_comm _ _ _ _) _ _ (ord_ord_perm O O' sfs)).
    apply (fold_rel eq); [|reflexivity]. intros m _ sf _ <-. apply dupd_ext. intros v. apply s_union_ext, Ht.
  - apply fold_default_ext; [intros; apply s_union_idem | exact Ht |].
    intros k. now rewrite !lookup_ddel, Htf.
Qed.

Lemma merge_R O O' st st' o o' : R st st' -> R o o' -> R (merge O st o) (merge O' st' o').
Proof.
  intros HR [E _]. unfold merge. rewrite <- E. apply (fold_rel R); [|exact HR].
  intros s s' kv _ Hs. apply add_mapping_R; [exact Hs|]. intros x. now rewrite (ord_ord_perm O O').
Qed.

Definition targets (mp : mapping) (f : str) : list str :=
  match lookup f mp with Some tg => tg | None => [f] end.
Definition track (O : order) (mp : mapping) (st : tracking) (f : str) : tracking :=
  match lookup f mp with Some tg => add_mapping O st f tg | None => st end.

Lemma map_items_eq O mp fields : forall st,
  map_items O mp fields st = (flat_map (targets mp) fields, fold_left (track O mp) fields st).
Proof.
  induction fields as [|f r IH]; intros st; simpl; [reflexivity|].
  unfold targets at 1, track at 2. destruct (lookup f mp); rewrite IH; reflexivity.
Qed.

Lemma map_rule_eq O mp dets : forall st,
  map_rule O mp dets st = (map (flat_map (targets mp)) dets, fold_left (fun st d => fold_left (track O mp) d st) dets st).
Proof.
  induction dets as [|d r IH]; intros st; simpl; [reflexivity|]. rewrite map_items_eq, IH. reflexivity.
Qed.

Lemma track_R O O' mp st st' f : R st st' -> R (track O mp st f) (track O' mp st' f).
Proof. intros H. unfold track. destruct (lookup f mp); [apply add_mapping_R|]; easy. Qed.

Lemma map_all_R O O' mps : forall dets st st',
  R st st' ->
  fst (map_all O mps dets st) = fst (map_all O' mps dets st') /\
  R (snd (map_all O mps dets st)) (snd (map_all O' mps dets st')).
Proof.
  induction mps as [|mp r IH]; intros dets st st' HR; simpl; [split; [reflexivity | exact HR]|].
  rewrite !map_rule_eq. apply IH. revert HR. apply (fold_rel R). intros s s' d _. apply (fold_rel R).
  intros ? ? ? _. apply track_R.
Qed.

Lemma strict_msg_R O O' dets st st' : R st st' -> strict_msg O dets st = strict_msg O' dets st'.
Proof.
  intros [Hfm Htf]. unfold strict_msg.
  set (P := fun f => negb (haskey f (fst st') || haskey f (snd st'))).
  rewrite (filter_ext _ P) by (intros f; unfold P, haskey; now rewrite Hfm, Htf).
  assert (Hp := filter_perm P _ _ (ord_ord_perm O O' (norm (concat dets)))).
  destruct (filter P (ord O _)), (filter P (ord O' _)); try (apply Permutation_length in Hp; discriminate).
  - reflexivity.
  - do 3 f_equal. apply sorted_strs_perm, Hp.
Qed.

Theorem strict_run_order_free O O' nested mps dets :
  let '(d, m, st) := strict_run O nested mps dets in
  let '(d', m', st') := strict_run O' nested mps dets in
  d = d' /\ m = m' /\ fst st = fst st' /\ forall k, lookup k (snd st) = lookup k (snd st').
Proof.
  unfold strict_run.
  destruct (map_all_R O O' mps dets t_empty t_empty (R_refl _)) as [E H].
  destruct (map_all O mps dets t_empty) as [d s], (map_all O' mps dets t_empty) as [d' s']. simpl in *. subst d'.
  assert (H' : R (if nested then merge O t_empty s else s) (if nested then merge O' t_empty s' else s')).
  { destruct nested; [apply merge_R; [apply R_refl | exact H] | exact H]. }
  split; [reflexivity|]. split; [apply strict_msg_R; exact H'|]. exact H'.
Qed.

Theorem add_mapping_order_free O O' st s t :
  let st1 := add_mapping O st s t in let st2 := add_mapping O' st s t in
  fst st1 = fst st2 /\ forall k, lookup k (snd st1) = lookup k (snd st2).
Proof. apply add_mapping_R; [apply R_refl | intros x; reflexivity]. Qed.

(* the reverse-mapping update of the code before the repair kept only the source field that the set
   iteration yielded last: the resulting state depends on the order *)
Definition add_mapping_old (O : order) (st : tracking) (source : str) (target : list str) : tracking :=
  let '(fm, tf) := st in
  let '(fm1, tf1) :=
    match lookup source tf with
    | Some sfs =>
        let fm' := fold_left (fun m sf => dupd sf (fun ts => s_union (s_remove source ts) target) m)
                             (ord O sfs) fm in
        let last_sf := last (ord O sfs) [] in
        (fm', fold_left (fun m t => dupd_default [] t (s_add last_sf) m) target (ddel source tf))
    | None => (fm, tf)
    end in
  let fm2 := match lookup source fm1 with
             | None => fm1 ++ [(source, norm target)]
             | Some _ => dupd source (fun ts => s_union ts target) fm1
             end in
  (fm2, fold_left (fun m t => dupd_default [] t (s_add source) m) target tf1).

Theorem tracking_old_refuted :
  exists O O' st s t k, lookup k (snd (add_mapping_old O st s t)) <> lookup k (snd (add_mapping_old O' st s t)).
Proof.
  exists ord_id, ord_rev,
    (add_mapping ord_id (add_mapping ord_id t_empty [97] [[99]]) [98] [[99]]), [99], [[100]], [100].
  vm_compute. discriminate.
Qed.
