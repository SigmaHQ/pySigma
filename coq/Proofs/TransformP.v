(* C12: the detection walk commutes with the entry-wise substitution on documents, exactly (tree =
   rewritten document) and semantically (same truth value under every event); every transformation agrees
   locally with its documented rewrite; rule- and pipeline-level theorems. The definitions among the lemmas
   (rep_list, forall_items, sems, evals, meanings, doc_meanings, many_neg and the domains *_ok) are the words of
   the statements of Props/C12.v, and Run/C12run.v evaluates pipeline_ok: changing one changes what C12 claims. *)
From Coq Require Import NArith List Bool.
From PS Require Import Base.Chars Model.SString Model.Transform Spec.Rewrite Proofs.HashesP Proofs.CharsP.
Import ListNotations.
Open Scope N_scope.

Lemma flat_map_ext_Forall {A B} (f g : A -> list B) l :
  Forall (fun x => f x = g x) l -> flat_map f l = flat_map g l.
Proof. induction 1; simpl; [reflexivity | congruence]. Qed.

Lemma flat_map_unit {A} (g : A -> list A) l : Forall (fun x => g x = [x]) l -> flat_map g l = l.
Proof. induction 1 as [|x l Hx _ IH]; cbn [flat_map]; [|rewrite Hx, IH]; reflexivity. Qed.

Lemma map_snd_id {A B} (f : B -> B) (l : list (A * B)) :
  (forall d, f d = d) -> map (fun p => (fst p, f (snd p))) l = l.
Proof. intros H. induction l as [|[a b] l IH]; cbn [map fst snd]; [|rewrite H, IH]; reflexivity. Qed.

Lemma Forall_guard {A} (P : A -> Prop) (q : A -> bool) l :
  Forall (fun x => q x = true -> P x) l -> forallb q l = true -> Forall P l.
Proof.
  induction 1 as [|x l Hx _ IH]; cbn [forallb]; intros H; constructor; apply andb_true_iff in H; [apply Hx, H | apply IH, H].
Qed.

Lemma existsb_map {A B} (f : A -> B) (p : B -> bool) l : existsb p (map f l) = existsb (fun x => p (f x)) l.
Proof. induction l; simpl; [reflexivity | rewrite IHl; reflexivity]. Qed.

Lemma existsb_none {A} (p : A -> bool) l : existsb p l = false -> Forall (fun x => p x = false) l.
Proof.
  induction l; cbn [existsb]; intros H; constructor; apply orb_false_iff in H; [apply H | apply IHl, H].
Qed.

Section DetInd.
  Variable P : det -> Prop.
  Hypothesis HI : forall i, P (DI i).
  Hypothesis HD : forall l land, Forall P l -> P (DD l land).
  Fixpoint det_ind' (d : det) : P d :=
    match d with
    | DI i => HI i
    | DD l land => HD l land ((fix go (l : list det) : Forall P l :=
                                 match l with
                                 | [] => Forall_nil P
                                 | x :: r => Forall_cons x (det_ind' x) (go r)
                                 end) l)
    end.
End DetInd.
Section DocInd.
  Variable P : doc -> Prop.
  Hypothesis HE : forall i, P (Entry i).
  Hypothesis HA : forall l, Forall P l -> P (All l).
  Hypothesis HO : forall l, Forall P l -> P (Any l).
  Hypothesis HN : forall d, P d -> P (Neg d).
  Fixpoint doc_ind' (d : doc) : P d :=
    let go := fix go (l : list doc) : Forall P l :=
                match l with [] => Forall_nil P | x :: r => Forall_cons x (doc_ind' x) (go r) end in
    match d with
    | Entry i => HE i
    | All l => HA l (go l)
    | Any l => HO l (go l)
    | Neg d => HN d (doc_ind' d)
    end.
End DocInd.

Definition rep_list (i : ditem) (r : rep) : list det :=
  match r with Keep => [DI i] | Repl d => [d] | Delete => [] end.

Lemma walk_DI tr i : walk tr (DI i) = rep_list i (tr i).
Proof. simpl. destruct (tr i); reflexivity. Qed.

Lemma walk_same tr : (forall i, rep_list i (tr i) = [DI i]) -> forall d, walk tr d = [d].
Proof.
  intros H. induction d as [i | l land IH] using det_ind'; [rewrite walk_DI; apply H|].
  cbn [walk]. rewrite (flat_map_unit _ _ IH). reflexivity.
Qed.
Lemma walk_top_same tr : (forall i, rep_list i (tr i) = [DI i]) -> forall d, walk_top tr d = d.
Proof.
  intros H [i | l land]; [reflexivity|]. cbn [walk_top].
  injection (walk_same tr H (DD l land)) as ->. reflexivity.
Qed.

Fixpoint forall_items (p : ditem -> bool) (d : det) : bool :=
  match d with DI i => p i | DD l _ => forallb (forall_items p) l end.

Lemma forall_items_true d : forall_items (fun _ => true) d = true.
Proof.
  induction d as [i | l land IH] using det_ind'; [reflexivity|]. cbn [forall_items].
  apply forallb_forall, Forall_forall, IH.
Qed.

Lemma subst_DD r l land : subst r (doc_of (DD l land)) = [subst_top r (doc_of (DD l land))].
Proof. destruct land; reflexivity. Qed.
Lemma subst_top_DD r l land :
  subst_top r (doc_of (DD l land))
  = if land then All (flat_map (subst r) (map doc_of l)) else Any (flat_map (subst r) (map doc_of l)).
Proof. destruct land; reflexivity. Qed.

Lemma subst_same r : (forall i, r i = Some (Entry i)) -> forall d, subst r d = [d].
Proof.
  intros H. induction d as [i | l IH | l IH | d IH] using doc_ind'; cbn [subst].
  1: rewrite H; reflexivity.
  3: rewrite IH; reflexivity.
  all: rewrite (flat_map_unit _ _ IH); reflexivity.
Qed.
Lemma subst_top_same r : (forall i, r i = Some (Entry i)) -> forall d, subst_top r d = d.
Proof.
  intros H [i | l | l | d]; cbn [subst_top]; try reflexivity.
  all: rewrite flat_map_unit; [reflexivity | apply Forall_forall; intros x _; apply subst_same, H].
Qed.

Lemma walk_exact p tr r :
  (forall i, p i = true -> map doc_of (rep_list i (tr i)) = opt_list (r i)) ->
  forall d, forall_items p d = true -> map doc_of (walk tr d) = subst r (doc_of d).
Proof.
  intros H. induction d as [i | l land IH] using det_ind'; intros Hp.
  - rewrite walk_DI. apply H, Hp.
  - rewrite subst_DD, subst_top_DD. cbn [walk map doc_of].
    rewrite map_flat_map, flat_map_map, (flat_map_ext_Forall _ _ _ (Forall_guard _ _ _ IH Hp)). reflexivity.
Qed.

Lemma walk_top_exact p tr r :
  (forall i, p i = true -> map doc_of (rep_list i (tr i)) = opt_list (r i)) ->
  forall d, forall_items p d = true -> doc_of (walk_top tr d) = subst_top r (doc_of d).
Proof.
  intros H [i | l land] Hp; [reflexivity|].
  pose proof (walk_exact p tr r H _ Hp) as E. rewrite subst_DD in E. injection E as E. exact E.
Qed.

Section SemC.
Variable asg : option str -> aval -> bool.
Definition sems (l : list det) : list bool := flat_map (fun x => opt_list (sem asg x)) l.
Definition evals (l : list doc) : list bool := flat_map (fun x => opt_list (eval asg x)) l.

Lemma sems_one d : sems [d] = opt_list (sem asg d).
Proof. apply app_nil_r. Qed.
Lemma evals_one d : evals [d] = opt_list (eval asg d).
Proof. apply app_nil_r. Qed.
Lemma sems_flat_map {A} (f : A -> list det) l : sems (flat_map f l) = flat_map (fun x => sems (f x)) l.
Proof. apply flat_map_flat_map. Qed.
Lemma evals_flat_map {A} (f : A -> list doc) l : evals (flat_map f l) = flat_map (fun x => evals (f x)) l.
Proof. apply flat_map_flat_map. Qed.
Lemma evals_map_Entry {A} (e : A -> ditem) l : evals (map (fun x => Entry (e x)) l) = map (fun x => sem_item asg (e x)) l.
Proof. induction l; simpl; [reflexivity | rewrite IHl; reflexivity]. Qed.
Lemma evals_map_neg l : evals (map Neg l) = map negb (evals l).
Proof.
  unfold evals. rewrite flat_map_map, map_flat_map. apply flat_map_ext. intros d. cbn [eval].
  destruct (eval asg d); reflexivity.
Qed.

Lemma sem_DD l land : sem asg (DD l land) = comb land (sems l).
Proof. reflexivity. Qed.
Lemma eval_if (land : bool) l : eval asg (if land then All l else Any l) = comb land (evals l).
Proof. destruct land; reflexivity. Qed.

Lemma opt_list_inj {A} (a b : option A) : opt_list a = opt_list b -> a = b.
Proof. destruct a, b; cbn [opt_list]; congruence. Qed.

Lemma eval_doc_of d : eval asg (doc_of d) = sem asg d.
Proof.
  induction d as [i | l land IH] using det_ind'; [reflexivity|].
  cbn [doc_of]. rewrite eval_if, sem_DD. f_equal. unfold evals, sems. rewrite flat_map_map.
  apply flat_map_ext_Forall. eapply Forall_impl, IH. intros x ->. reflexivity.
Qed.
Lemma evals_doc_of l : evals (map doc_of l) = sems l.
Proof. unfold evals. rewrite flat_map_map. apply flat_map_ext. intros d. rewrite eval_doc_of. reflexivity. Qed.

(* over every document: the negations, which no doc_of yields, are what a rewrite leaves behind (wrap_neg) *)
Lemma subst_sem_same r : (forall i, evals (opt_list (r i)) = [sem_item asg i]) ->
  forall d, evals (subst r d) = opt_list (eval asg d).
Proof.
  intros H. induction d as [i | l IH | l IH | d IH] using doc_ind'; cbn [subst].
  1: apply H.
  3: rewrite evals_map_neg, IH; cbn [eval]; destruct (eval asg d); reflexivity.
  all: rewrite evals_one; cbn [eval]; do 2 f_equal; rewrite flat_map_flat_map; apply flat_map_ext_Forall, IH.
Qed.
Lemma subst_top_sem_same r : (forall i, evals (opt_list (r i)) = [sem_item asg i]) ->
  forall d, eval asg (subst_top r d) = eval asg d.
Proof.
  intros H [i | l | l | d]; cbn [subst_top eval]; try reflexivity.
  all: f_equal; rewrite flat_map_flat_map; apply flat_map_ext; intros x; apply (subst_sem_same r H).
Qed.

Lemma walk_sem p tr r :
  (forall i, p i = true -> sems (rep_list i (tr i)) = evals (opt_list (r i))) ->
  forall d, forall_items p d = true -> sems (walk tr d) = evals (subst r (doc_of d)).
Proof.
  intros H. induction d as [i | l land IH] using det_ind'; intros Hp.
  - rewrite walk_DI. apply H, Hp.
  - rewrite subst_DD, subst_top_DD. cbn [walk]. rewrite sems_one, evals_one, sem_DD, eval_if.
    rewrite sems_flat_map, evals_flat_map, flat_map_map, (flat_map_ext_Forall _ _ _ (Forall_guard _ _ _ IH Hp)).
    reflexivity.
Qed.

Lemma walk_top_sem p tr r :
  (forall i, p i = true -> sems (rep_list i (tr i)) = evals (opt_list (r i))) ->
  forall d, forall_items p d = true -> sem asg (walk_top tr d) = eval asg (subst_top r (doc_of d)).
Proof.
  intros H [i | l land] Hp; [reflexivity|].
  pose proof (walk_sem p tr r H _ Hp) as E. rewrite subst_DD, evals_one in E. apply opt_list_inj.
  rewrite <- E. symmetry. apply sems_one.
Qed.

Lemma exact_sem_local l ds : map doc_of l = ds -> sems l = evals ds.
Proof. intros <-. symmetry. apply evals_doc_of. Qed.

Lemma forallb_map_negb l : forallb id (map negb l) = negb (existsb id l).
Proof. induction l; simpl; [reflexivity | rewrite IHl, negb_orb; reflexivity]. Qed.
Lemma existsb_map_negb l : existsb id (map negb l) = negb (forallb id l).
Proof. induction l; simpl; [reflexivity | rewrite IHl, negb_andb; reflexivity]. Qed.
Lemma comb_map_negb land l : comb (negb land) (map negb l) = option_map negb (comb land l).
Proof.
  destruct l as [|b l]; [reflexivity|]. unfold comb. cbn [map option_map]. f_equal.
  destruct land; [apply (existsb_map_negb (b :: l)) | apply (forallb_map_negb (b :: l))].
Qed.
Lemma sem_item_neg f vs all ap : sem_item asg (mkI f vs all true ap) = negb (sem_item asg (mkI f vs all false ap)).
Proof. unfold sem_item. cbn [i_neg]. rewrite xorb_false_l. reflexivity. Qed.
(* De Morgan: copies of an entry that are negated one by one and linked one way mean the negation of
   the plain copies linked the other way; e n x is the copy for x with negation n *)
Lemma neg_group {A} (e : bool -> A -> ditem) l (land : bool) :
  (forall x, sem_item asg (e true x) = negb (sem_item asg (e false x))) ->
  sem asg (DD (map (fun x => DI (e true x)) l) (negb land))
  = eval asg (Neg (if land then All (map (fun x => Entry (e false x)) l) else Any (map (fun x => Entry (e false x)) l))).
Proof.
  intros H. cbn [eval]. rewrite eval_if, sem_DD, <- evals_doc_of, map_map. cbn [doc_of].
  rewrite !evals_map_Entry, (map_ext _ _ H), <- map_map. apply comb_map_negb.
Qed.
End SemC.

Lemma ditem_eta i : mkI (i_field i) (i_vals i) (i_all i) (i_neg i) (i_applied i) = i.
Proof. destruct i; reflexivity. Qed.

(* a transformation that rewrites the value list keeps the item itself when no value changed *)
Lemma same_or_keep i vs (b : bool) : (b = false -> vs = i_vals i) ->
  rep_list i (if b then Repl (DI (mkI (i_field i) vs (i_all i) (i_neg i) (i_applied i))) else Keep)
  = [DI (mkI (i_field i) vs (i_all i) (i_neg i) (i_applied i))].
Proof. destruct b; intros H; [reflexivity|]. rewrite (H eq_refl), ditem_eta. reflexivity. Qed.

Lemma doc_of_mark id d : doc_of (mark_det id d) = mark_doc id (doc_of d).
Proof.
  induction d as [i | l land IH] using det_ind'; [reflexivity|].
  cbn [mark_det doc_of]. destruct land; cbn [mark_doc]; rewrite !map_map, (map_ext_Forall _ _ IH); reflexivity.
Qed.
Lemma sem_item_mark asg id i : sem_item asg (mark_item id i) = sem_item asg i.
Proof. destruct id; reflexivity. Qed.
Lemma eval_mark asg id d : eval asg (mark_doc id d) = eval asg d.
Proof.
  induction d as [i | l IH | l IH | d IH] using doc_ind'; cbn [mark_doc eval].
  1: rewrite sem_item_mark; reflexivity.
  3: rewrite IH; reflexivity.
  all: f_equal; rewrite flat_map_map; apply flat_map_ext_Forall; eapply Forall_impl, IH; intros x ->; reflexivity.
Qed.
Lemma sem_mark asg id d : sem asg (mark_det id d) = sem asg d.
Proof. rewrite <- !eval_doc_of, doc_of_mark. apply eval_mark. Qed.

Definition is_repl (r : rep) : bool := match r with Repl _ => true | _ => false end.

Lemma marked_gated id im tr i : marked id (gated im tr) i = gated im (marked id tr) i.
Proof. unfold marked, gated. destruct (im i); reflexivity. Qed.

Lemma scoped_same im i : opt_list (scoped im (fun i => Some (Entry i)) i) = [Entry i].
Proof. unfold scoped. destruct (im i); reflexivity. Qed.
Lemma gated_exact im tr r i :
  (im i = true -> map doc_of (rep_list i (tr i)) = opt_list (r i)) ->
  map doc_of (rep_list i (gated im tr i)) = opt_list (scoped im r i).
Proof. intros H. unfold gated, scoped. destruct (im i); [apply H; reflexivity | reflexivity]. Qed.
Lemma gated_sem asg im tr r i :
  (im i = true -> sems asg (rep_list i (tr i)) = evals asg (opt_list (r i))) ->
  sems asg (rep_list i (gated im tr i)) = evals asg (opt_list (scoped im r i)).
Proof. intros H. unfold gated, scoped. destruct (im i); [apply H; reflexivity | reflexivity]. Qed.

Lemma marked_exact id tr touch r i :
  map doc_of (rep_list i (tr i)) = opt_list (r i) -> touch i = is_repl (tr i) ->
  map doc_of (rep_list i (marked id tr i)) = opt_list (smarked id touch r i).
Proof.
  unfold marked, smarked. intros E ->. destruct (tr i) as [|d|]; cbn [is_repl]; try exact E.
  destruct (r i); [|discriminate]. injection E as <-. cbn. rewrite doc_of_mark. reflexivity.
Qed.
Lemma sems_marked asg id tr i : sems asg (rep_list i (marked id tr i)) = sems asg (rep_list i (tr i)).
Proof.
  unfold marked. destruct (tr i); try reflexivity. cbn [rep_list]. rewrite !sems_one, sem_mark. reflexivity.
Qed.
Lemma evals_smarked asg id touch r i : evals asg (opt_list (smarked id touch r i)) = evals asg (opt_list (r i)).
Proof.
  unfold smarked. destruct (touch i), (r i); try reflexivity. cbn [option_map opt_list].
  rewrite !evals_one, eval_mark. reflexivity.
Qed.

Lemma layer_exact id im tr touch r i :
  (im i = true -> map doc_of (rep_list i (tr i)) = opt_list (r i) /\ touch i = is_repl (tr i)) ->
  map doc_of (rep_list i (marked id (gated im tr) i)) = opt_list (scoped im (smarked id touch r) i).
Proof.
  intros H. rewrite marked_gated. apply gated_exact. intros Him. destruct (H Him). apply marked_exact; assumption.
Qed.
Lemma layer_sem asg id im tr touch r i :
  (im i = true -> sems asg (rep_list i (tr i)) = evals asg (opt_list (r i))) ->
  sems asg (rep_list i (marked id (gated im tr) i)) = evals asg (opt_list (scoped im (smarked id touch r) i)).
Proof. intros H. rewrite marked_gated. apply gated_sem. rewrite sems_marked, evals_smarked. exact H. Qed.

Section FieldMapP.
Variable fm : option str -> bool.
Variable afn : option str -> fres.

Lemma map_ref_spec v :
  map_ref fm afn v = (rename_ref fm afn v, match v with V (ARef g _ _) => fm (Some g) | _ => false end).
Proof.
  destruct v as [[ | | | |? ?|g sw ew|? ?| ]|]; try reflexivity.
  unfold map_ref, rename_ref, targets, afn_list. destruct (fm (Some g)), (afn (Some g)); reflexivity.
Qed.
Lemma rename_ref_out v :
  match v with V (ARef g _ _) => fm (Some g) | _ => false end = false -> rename_ref fm afn v = [v].
Proof.
  destruct v as [[ | | | |? ?|g sw ew|? ?| ]|]; try reflexivity. unfold rename_ref, targets. intros ->. reflexivity.
Qed.
Lemma rename_ref_none vs :
  existsb (fun v => match v with V (ARef g _ _) => fm (Some g) | _ => false end) vs = false ->
  flat_map (rename_ref fm afn) vs = vs.
Proof. intros E. apply flat_map_unit. eapply Forall_impl, existsb_none, E. exact rename_ref_out. Qed.
(* vals1, vals2: the value lists that fieldmap_item (Model/Transform.v) and rw_rename (Spec/Rewrite.v) both
   build - the values with the field references renamed, and these made substring matches when a keyword
   item becomes a field item. The model's vals1 is the specification's; so is its vals2 on kw_ok (there
   wild_value is kw_value). *)
Lemma vals1_eq vs :
  (if existsb snd (map (map_ref fm afn) vs) then flat_map fst (map (map_ref fm afn) vs) else vs)
  = flat_map (rename_ref fm afn) vs.
Proof.
  rewrite (map_ext _ _ map_ref_spec), flat_map_map, existsb_map. cbn [fst snd].
  destruct (existsb _ vs) eqn:E; [reflexivity | symmetry; apply rename_ref_none, E].
Qed.

(* the domain: a keyword item that is mapped to a field carries only values with a substring form
   the implementation produces (strings); numbers keep their exact-match form (D28) *)
Definition kw_value_ok (v : value) : bool := match v with V (ANum _) | VExp _ => false | _ => true end.
Definition kw_ok (i : ditem) : bool :=
  match i_field i with
  | None => if fres_some (afn None) && fm None then forallb kw_value_ok (i_vals i) else true
  | Some _ => true
  end.
(* exact agreement additionally needs: no negated item mapped one-to-many (there the tree is the
   De Morgan dual of the documented rewrite) *)
Definition many_neg (i : ditem) : bool :=
  match afn (i_field i) with FMany _ => fm (i_field i) && i_neg i | _ => false end.

Lemma wild_kw_value v : kw_value_ok v = true -> wild_value v = kw_value v.
Proof. destruct v as [[ | | | |? ?|? ? ?|? ?| ]|]; try reflexivity; discriminate. Qed.
Lemma wild_kw_rename v :
  kw_value_ok v = true -> map wild_value (rename_ref fm afn v) = map kw_value (rename_ref fm afn v).
Proof.
  intros H. destruct v as [[ | | | |? ?|g sw ew|? ?| ]|]; try (cbn [rename_ref map]; rewrite (wild_kw_value _ H); reflexivity).
  unfold rename_ref. destruct (targets fm afn (Some g)); [rewrite !map_map|]; reflexivity.
Qed.

Lemma vals2_eq i : kw_ok i = true -> fres_some (afn (i_field i)) && fm (i_field i) = true ->
  match i_field i with None => map wild_value (flat_map (rename_ref fm afn) (i_vals i))
                  | Some _ => flat_map (rename_ref fm afn) (i_vals i) end
  = match i_field i with None => map kw_value (flat_map (rename_ref fm afn) (i_vals i))
                    | Some _ => flat_map (rename_ref fm afn) (i_vals i) end.
Proof.
  unfold kw_ok. destruct (i_field i); [reflexivity|]. intros H1 H2. rewrite H2 in H1.
  rewrite !map_flat_map. apply flat_map_ext_Forall. eapply Forall_impl; [exact wild_kw_rename|].
  apply Forall_forall, forallb_forall, H1.
Qed.

Lemma fieldmap_exact i : kw_ok i = true -> many_neg i = false ->
  map doc_of (rep_list i (fieldmap_item fm afn i)) = opt_list (rw_rename fm afn i).
Proof.
  intros Hk Hm. unfold fieldmap_item, rw_rename. rewrite vals1_eq.
  destruct (fres_some (afn (i_field i)) && fm (i_field i)) eqn:E.
  - rewrite (vals2_eq i Hk E). apply andb_true_iff in E. destruct E as [E1 E2]. rewrite E2.
    unfold many_neg in Hm. rewrite E2 in Hm.
    destruct (afn (i_field i)) as [|s|l]; [discriminate | reflexivity |].
    cbn [andb] in Hm. rewrite Hm. cbn [rep_list map doc_of opt_list wrap_neg]. rewrite map_map. reflexivity.
  - replace (if fm (i_field i) then afn (i_field i) else FNone) with FNone
      by (destruct (fm (i_field i)), (afn (i_field i)); try reflexivity; discriminate).
    rewrite same_or_keep; [reflexivity|]. intros E'. rewrite <- vals1_eq, E'. reflexivity.
Qed.

Lemma fieldmap_dual asg i : kw_ok i = true -> many_neg i = true ->
  sems asg (rep_list i (fieldmap_item fm afn i)) = evals asg (opt_list (rw_rename fm afn i)).
Proof.
  intros Hk Hm. pose proof (vals2_eq i Hk) as V2. unfold many_neg in Hm. unfold fieldmap_item, rw_rename.
  rewrite vals1_eq. destruct (afn (i_field i)) as [|s|l]; try discriminate.
  apply andb_true_iff in Hm. destruct Hm as [Hf Hn]. rewrite Hf, Hn in *. rewrite V2 by reflexivity.
  set (vs := match i_field i with None => _ | Some _ => _ end).
  cbn [fres_some andb rep_list opt_list wrap_neg]. rewrite sems_one, evals_one. f_equal.
  exact (neg_group asg (fun n s => mkI (Some s) vs (i_all i) n (i_applied i)) l false (fun _ => sem_item_neg asg _ _ _ _)).
Qed.

Lemma fieldmap_touch i : touch_rename fm afn i = is_repl (fieldmap_item fm afn i).
Proof.
  unfold touch_rename, fieldmap_item. destruct (fres_some (afn (i_field i)) && fm (i_field i)) eqn:F.
  - destruct (afn (i_field i)); [discriminate | reflexivity | reflexivity].
  - rewrite (map_ext _ _ map_ref_spec), existsb_map. cbn [snd orb]. destruct (existsb _ _); reflexivity.
Qed.
End FieldMapP.

Lemma value_item_spec tv i : value_item tv i =
  if touch_values tv i
  then Repl (DI (mkI (i_field i) (flat_map (tvs_of tv (i_field i)) (i_vals i)) (i_all i) (i_neg i) (i_applied i)))
  else Keep.
Proof. unfold value_item, touch_values. rewrite existsb_map, flat_map_map. reflexivity. Qed.
Lemma value_item_exact tv i :
  map doc_of (rep_list i (value_item tv i)) = opt_list (rw_values (tvs_of tv) i).
Proof.
  unfold rw_values. rewrite value_item_spec, same_or_keep; [reflexivity|].
  intros E. apply flat_map_unit. eapply Forall_impl, existsb_none, E.
  unfold tvs_of. cbn beta. intros v Hv. destruct (tv (i_field i) v); [discriminate | reflexivity].
Qed.

Lemma value_item_exact_on tv tvs i :
  (forall v, In v (i_vals i) -> tvs (i_field i) v = tvs_of tv (i_field i) v) ->
  map doc_of (rep_list i (value_item tv i)) = opt_list (rw_values tvs i).
Proof.
  intros H. rewrite value_item_exact. unfold rw_values. cbn [opt_list]. do 3 f_equal.
  apply flat_map_ext_Forall, Forall_forall. intros v Hv. symmetry. apply H, Hv.
Qed.
Lemma value_touch tv i : touch_values tv i = is_repl (value_item tv i).
Proof. rewrite value_item_spec. destruct (touch_values tv i); reflexivity. Qed.

Definition part_eqb (a b : part) : bool :=
  match a, b with
  | PStr x, PStr y => str_eqb x y
  | PMulti, PMulti | PSingle, PSingle => true
  | PPh x, PPh y => str_eqb x y
  | _, _ => false
  end.
Lemma part_eqb_eq a b : part_eqb a b = true <-> a = b.
Proof.
  destruct a, b; simpl; split; intro H; try discriminate; try reflexivity;
    try (apply str_eqb_eq in H; congruence); try (inversion H; apply str_eqb_refl).
Qed.
Definition sstring_eqb := list_eqb part_eqb.
Lemma sstring_eqb_eq a b : sstring_eqb a b = true <-> a = b.
Proof. apply list_eqb_eq, part_eqb_eq. Qed.

(* the domain of replace_string: a substitution that leaves the plain form alone leaves the value alone *)
Definition replace_value_ok (sub : str -> str) (v : value) : bool :=
  match v with
  | V (AStr _ s) => let p := to_plain false s in
                    if str_eqb (sub p) p then sstring_eqb (replace_sstring sub s) s else true
  | V (ANum n) => let p := to_plain false (parse true n) in negb (str_eqb (sub p) p)
  | _ => true
  end.
Lemma replace_value_agree sub f v :
  replace_value_ok sub v = true -> tvs_replace sub f v = tvs_of (tv_replace sub) f v.
Proof.
  destruct v as [[c s|n| | | | | | ]|]; try reflexivity; unfold replace_value_ok, tvs_replace, tvs_of, tv_replace.
  - destruct (str_eqb (sub (to_plain false s)) (to_plain false s)); [|reflexivity].
    intros H. apply sstring_eqb_eq in H. rewrite H. reflexivity.
  - destruct (str_eqb _ _); [discriminate | reflexivity].
Qed.

Lemma hashes_item_spec H i : hashes_item H i =
  if touch_hashes H i
  then Repl (DD (map (fun g => DI (hash_entry i (i_neg i) g))
                     (filter (fun g => nonempty (fst g)) (spec_group (hash_pairs H (i_vals i)))))
                (xorb (i_all i) (i_neg i)))
  else Keep.
Proof. unfold hashes_item, touch_hashes. rewrite dict_group_spec. destruct (i_field i); reflexivity. Qed.
Lemma hashes_touch H i : touch_hashes H i = is_repl (hashes_item H i).
Proof. rewrite hashes_item_spec. destruct (touch_hashes H i); reflexivity. Qed.
Lemma hashes_exact H i : i_neg i = false ->
  map doc_of (rep_list i (hashes_item H i)) = opt_list (rw_hashes H i).
Proof.
  intros Hn. unfold rw_hashes. rewrite hashes_item_spec. destruct (touch_hashes H i); [|reflexivity].
  rewrite Hn, xorb_false_r. cbn [rep_list map doc_of opt_list wrap_neg].
  rewrite map_map. destruct (i_all i); reflexivity.
Qed.
Lemma hashes_dual asg H i : i_neg i = true ->
  sems asg (rep_list i (hashes_item H i)) = evals asg (opt_list (rw_hashes H i)).
Proof.
  intros Hn. unfold rw_hashes. rewrite hashes_item_spec. destruct (touch_hashes H i); [|reflexivity].
  rewrite Hn. cbn [rep_list opt_list wrap_neg]. rewrite sems_one, evals_one. f_equal.
  exact (neg_group asg (hash_entry i) _ (i_all i) (fun _ => sem_item_neg asg _ _ _ _)).
Qed.

Lemma extract_docs_of X i : map doc_of (extract_dets X i) = extract_docs X i.
Proof.
  unfold extract_dets, extract_docs. rewrite map_flat_map. apply flat_map_ext. intros v.
  destruct v as [[c s| | | | | | | ]|]; try reflexivity.
  destruct (extract_lookup X s) as [groups|].
  - destruct (extract_group_items X groups) as [|a l]; [reflexivity|]. cbn [map doc_of]. rewrite map_map. reflexivity.
  - destruct (x_preserve X); reflexivity.
Qed.
Lemma extract_touch X i : touch_extract X i = is_repl (extract_item X i).
Proof.
  unfold touch_extract, extract_item. rewrite <- extract_docs_of.
  destruct (forallb is_strv (i_vals i)); [|reflexivity]. destruct (extract_dets X i) as [|x [|y l]]; reflexivity.
Qed.
Lemma extract_exact X i : i_neg i && touch_extract X i = false ->
  map doc_of (rep_list i (extract_item X i)) = opt_list (rw_extract X i).
Proof.
  unfold touch_extract, rw_extract, extract_item. rewrite <- extract_docs_of.
  destruct (forallb is_strv (i_vals i)); [|reflexivity].
  destruct (extract_dets X i) as [|x [|y l]]; [reflexivity | |]; cbn [map andb]; rewrite andb_true_r; intros ->; reflexivity.
Qed.

Definition afn_of (t : tspec) : option (option str -> fres) :=
  match t with
  | TFieldMap m => Some (afn_mapping m)
  | TPrefixMap m => Some (afn_prefixmap m)
  | TPrefix p => Some (afn_prefix p)
  | TSuffix s => Some (afn_suffix s)
  | _ => None
  end.

(* domain of the semantic theorem, per detection item in the scope of the processing item *)
Definition item_sem_ok (c : conds) (t : tspec) (i : ditem) : bool :=
  negb (im_of c i) ||
  match afn_of t, t with
  | Some afn, _ => kw_ok (fm_of c) afn i
  | None, TReplace tbl => forallb (replace_value_ok (tbl_sub tbl)) (i_vals i)
  | None, TExtract X => negb (i_neg i && touch_extract X i)     (* the negation of the item is lost (D34) *)
  | None, _ => true
  end.
Definition item_exact_ok (c : conds) (t : tspec) (i : ditem) : bool :=
  item_sem_ok c t i &&
  negb (im_of c i && match afn_of t, t with
                     | Some afn, _ => many_neg (fm_of c) afn i
                     | None, THashes _ => i_neg i       (* the tree is the De Morgan dual of the rewrite *)
                     | None, _ => false
                     end).

Definition rule_ok (p : ditem -> bool) (r : rule) : bool :=
  forallb (fun d => forall_items p (snd d)) (r_dets r).

Definition tv_of (t : tspec) : option (option str -> value -> option (list value)) :=
  match t with
  | TSetValue a => Some (tv_set a)
  | TCase m => Some (tv_case m)
  | TMapString m => Some (tv_mapstring m)
  | TReplace tbl => Some (tv_replace (tbl_sub tbl))
  | TConvertStr => Some tv_convert_str
  | TWildPh k => Some (tv_placeholder k repl_wild)
  | TValuePh k vars => Some (tv_placeholder k (repl_vars vars))
  | TRegex m => Some (tv_regex m)
  | TConvertNum tbl => Some (tv_convert_num tbl)
  | TQueryPh k e m => Some (tv_queryph k e m)
  | _ => None
  end.

(* what a processing item does to one detection item: apply_detection_item of its transformation, gated by
   the detection item conditions, the replacement marked; the other transformations keep every item *)
Definition tr_of (c : conds) (t : tspec) : ditem -> rep :=
  let layer tr := marked (c_id c) (gated (im_of c) tr) in
  match afn_of t, tv_of t, t with
  | Some afn, _, _ => layer (fieldmap_item (fm_of c) afn)
  | None, Some tv, _ => layer (value_item tv)
  | None, None, THashes H => layer (hashes_item H)
  | None, None, TExtract X => layer (extract_item X)
  | None, None, TDrop => gated (im_of c) drop_item
  | None, None, _ => fun _ => Keep
  end.
Definition is_addcond (t : tspec) : bool := match t with TAddCond _ _ _ => true | _ => false end.

Lemma apply_tspec_dets c t r : is_addcond t = false ->
  r_dets (apply_tspec c t r) = map (fun p => (fst p, walk_top (tr_of c t) (snd p))) (r_dets r).
Proof.
  destruct t; try discriminate; intros _; try reflexivity.
  all: symmetry; apply map_snd_id, walk_top_same; reflexivity.
Qed.

(* the value function in the documented rewrite of a value transformation: replace_string has one of
   its own (values whose plain form does not change stay), the others take the model's *)
Definition tvs_spec (t : tspec) (tv : option str -> value -> option (list value)) : option str -> value -> list value :=
  match t with TReplace tbl => tvs_replace (tbl_sub tbl) | _ => tvs_of tv end.
Lemma rw_tspec_rename c t afn : afn_of t = Some afn ->
  rw_tspec c t = scoped (im_of c) (smarked (c_id c) (touch_rename (fm_of c) afn) (rw_rename (fm_of c) afn)).
Proof. intros E. destruct t; try discriminate E; injection E as <-; reflexivity. Qed.
Lemma rw_tspec_values c t tv : tv_of t = Some tv ->
  rw_tspec c t = scoped (im_of c) (smarked (c_id c) (touch_values tv) (rw_values (tvs_spec t tv))).
Proof. intros E. destruct t; try discriminate E; injection E as <-; reflexivity. Qed.
Lemma tvs_spec_agree c t tv i : tv_of t = Some tv -> im_of c i = true -> item_sem_ok c t i = true ->
  forall v, In v (i_vals i) -> tvs_spec t tv (i_field i) v = tvs_of tv (i_field i) v.
Proof.
  destruct t; try discriminate; try reflexivity. unfold item_sem_ok. cbn [afn_of tv_of tvs_spec].
  intros Et -> H v Hv. injection Et as <-. apply replace_value_agree, (proj1 (forallb_forall _ _) H), Hv.
Qed.
Lemma afn_tv_disjoint t afn : afn_of t = Some afn -> tv_of t = None.
Proof. destruct t; try discriminate; reflexivity. Qed.

Lemma tr_of_exact c t i : item_exact_ok c t i = true ->
  map doc_of (rep_list i (tr_of c t i)) = opt_list (rw_tspec c t i).
Proof.
  unfold item_exact_ok, tr_of. intros H. apply andb_true_iff in H. destruct H as [Hs Hx].
  apply negb_true_iff in Hx.
  destruct (afn_of t) as [afn|] eqn:Ef.
  { rewrite (rw_tspec_rename c t afn Ef). apply layer_exact. intros Him. unfold item_sem_ok in Hs. rewrite Ef, Him in *.
    split; [apply fieldmap_exact; assumption | apply fieldmap_touch]. }
  destruct (tv_of t) as [tv|] eqn:Et.
  { rewrite (rw_tspec_values c t tv Et). apply layer_exact. intros Him.
    split; [apply value_item_exact_on, (tvs_spec_agree c t tv i Et Him Hs) | apply value_touch]. }
  (* left: drop, hashes_fields, extract_fields, in the order of the constructors; the others keep every item *)
  destruct t; try discriminate; unfold rw_tspec; try (symmetry; apply scoped_same).
  - apply gated_exact. reflexivity.
  - apply layer_exact. intros Him. rewrite Him in Hx. split; [apply hashes_exact, Hx | apply hashes_touch].
  - apply layer_exact. intros Him. unfold item_sem_ok in Hs. rewrite Him in Hs. apply negb_true_iff in Hs.
    split; [apply extract_exact, Hs | apply extract_touch].
Qed.

Lemma tr_of_sem asg c t i : item_sem_ok c t i = true ->
  sems asg (rep_list i (tr_of c t i)) = evals asg (opt_list (rw_tspec c t i)).
Proof.
  intros H. destruct (item_exact_ok c t i) eqn:E; [apply exact_sem_local, tr_of_exact, E|].
  (* outside the exact domain the tree is the De Morgan dual of the rewrite *)
  unfold item_exact_ok in E. rewrite H in E. apply negb_false_iff, andb_true_iff in E. destruct E as [Him E].
  unfold item_sem_ok in H. rewrite Him in H. unfold tr_of.
  destruct (afn_of t) as [afn|] eqn:Ef.
  - rewrite (rw_tspec_rename c t afn Ef). apply layer_sem. intros _. apply fieldmap_dual; assumption.
  - destruct t; try discriminate. apply layer_sem. intros _. apply hashes_dual, E.
Qed.

Lemma dict_set_map {A B} (f : A -> B) k v l :
  map (fun p => (fst p, f (snd p))) (dict_set k v l) = dict_set k (f v) (map (fun p => (fst p, f (snd p))) l).
Proof.
  induction l as [|[k' v'] l IH]; [reflexivity|]. cbn [dict_set map fst snd].
  destruct (str_eqb k k'); [reflexivity|]. cbn [map fst snd]. rewrite IH. reflexivity.
Qed.
Lemma rewrite_tspec_nonadd c t ds : is_addcond t = false ->
  rewrite_tspec c t ds = map (fun p => (fst p, subst_top (rw_tspec c t) (snd p))) ds.
Proof. destruct t; try discriminate; reflexivity. Qed.

Definition rule_exact_ok (c : conds) (t : tspec) (r : rule) : bool :=
  is_addcond t || rule_ok (item_exact_ok c t) r.
Definition rule_sem_ok (c : conds) (t : tspec) (r : rule) : bool :=
  is_addcond t || rule_ok (item_sem_ok c t) r.

Lemma rule_ok_in p r n d : rule_ok p r = true -> In (n, d) (r_dets r) -> forall_items p d = true.
Proof. unfold rule_ok. rewrite forallb_forall. intros H Hin. apply (H _ Hin). Qed.

Theorem tspec_exact c t r : rule_exact_ok c t r = true ->
  rdocs_of (apply_tspec c t r) = rewrite_tspec c t (rdocs_of r).
Proof.
  unfold rule_exact_ok, rdocs_of. destruct (is_addcond t) eqn:Ea.
  - intros _. destruct t; try discriminate Ea. cbn [apply_tspec r_dets rewrite_tspec].
    rewrite <- doc_of_mark. apply (dict_set_map doc_of).
  - cbn [orb]. intros Hok. rewrite (rewrite_tspec_nonadd _ _ _ Ea), (apply_tspec_dets _ _ _ Ea), !map_map.
    apply map_ext_in. intros [n d] Hin. cbn [fst snd]. f_equal.
    apply (walk_top_exact (item_exact_ok c t)); [apply tr_of_exact | apply (rule_ok_in _ _ _ _ Hok Hin)].
Qed.

Definition meanings (asg : option str -> aval -> bool) (r : rule) : list (str * option bool) :=
  map (fun p => (fst p, sem asg (snd p))) (r_dets r).
Definition doc_meanings (asg : option str -> aval -> bool) (ds : rdocs) : list (str * option bool) :=
  map (fun p => (fst p, eval asg (snd p))) ds.

Lemma doc_meanings_of asg r : doc_meanings asg (rdocs_of r) = meanings asg r.
Proof.
  unfold doc_meanings, rdocs_of, meanings. rewrite map_map. apply map_ext. intros p. cbn [fst snd].
  rewrite eval_doc_of. reflexivity.
Qed.
Lemma exact_meanings asg r ds : rdocs_of r = ds -> meanings asg r = doc_meanings asg ds.
Proof. intros <-. symmetry. apply doc_meanings_of. Qed.

Theorem tspec_sem asg c t r : rule_sem_ok c t r = true ->
  meanings asg (apply_tspec c t r) = doc_meanings asg (rewrite_tspec c t (rdocs_of r)).
Proof.
  unfold rule_sem_ok. destruct (is_addcond t) eqn:Ea.
  - intros _. apply exact_meanings, tspec_exact. unfold rule_exact_ok. rewrite Ea. reflexivity.
  - cbn [orb]. intros Hok. unfold meanings, doc_meanings, rdocs_of.
    rewrite (rewrite_tspec_nonadd _ _ _ Ea), (apply_tspec_dets _ _ _ Ea), !map_map.
    apply map_ext_in. intros [n d] Hin. cbn [fst snd]. f_equal.
    apply (walk_top_sem asg (item_sem_ok c t)); [apply tr_of_sem | apply (rule_ok_in _ _ _ _ Hok Hin)].
Qed.

Lemma r_dets_mark_rule id r : r_dets (mark_rule id r) = r_dets r.
Proof. destruct id; reflexivity. Qed.
Lemma rdocs_of_mark_rule id r : rdocs_of (mark_rule id r) = rdocs_of r.
Proof. unfold rdocs_of. rewrite r_dets_mark_rule. reflexivity. Qed.
Lemma meanings_mark_rule asg id r : meanings asg (mark_rule id r) = meanings asg r.
Proof. unfold meanings. rewrite r_dets_mark_rule. reflexivity. Qed.

Definition item_step_ok (it : conds * tspec) (r : rule) : bool :=
  negb (c_rule (fst it)) || rule_exact_ok (fst it) (snd it) r.
Fixpoint items_exact_ok (its : list (conds * tspec)) (r : rule) : bool :=
  match its with
  | [] => true
  | it :: rest => item_step_ok it r && items_exact_ok rest (apply_item it r)
  end.
Definition pitem_exact_ok (p : pitem) (r : rule) : bool :=
  match p with
  | PItem c t => item_step_ok (c, t) r
  | PNest c items => negb (c_rule c) || items_exact_ok items (mark_rule (c_id c) r)
  end.
Fixpoint pipeline_exact_ok (ps : list pitem) (r : rule) : bool :=
  match ps with
  | [] => true
  | p :: rest => pitem_exact_ok p r && pipeline_exact_ok rest (apply_pitem p r)
  end.

Lemma item_step_exact it r : item_step_ok it r = true -> rdocs_of (apply_item it r) = rewrite_item it (rdocs_of r).
Proof.
  unfold item_step_ok, apply_item, rewrite_item. destruct (c_rule (fst it)); [|reflexivity].
  intros H. rewrite rdocs_of_mark_rule. apply tspec_exact, H.
Qed.
Lemma items_exact its : forall r, items_exact_ok its r = true ->
  rdocs_of (fold_left (fun r it => apply_item it r) its r) = fold_left (fun ds it => rewrite_item it ds) its (rdocs_of r).
Proof.
  induction its as [|it its IH]; intros r H; [reflexivity|].
  apply andb_true_iff in H. destruct H as [H1 H2]. cbn [fold_left]. rewrite (IH _ H2), (item_step_exact _ _ H1). reflexivity.
Qed.
Lemma pitem_exact p r : pitem_exact_ok p r = true -> rdocs_of (apply_pitem p r) = rewrite_pitem p (rdocs_of r).
Proof.
  destruct p as [c t | c items]; cbn [pitem_exact_ok apply_pitem rewrite_pitem]; [apply item_step_exact|].
  destruct (c_rule c); [|reflexivity]. intros H. rewrite (items_exact items _ H), rdocs_of_mark_rule. reflexivity.
Qed.
Theorem pipeline_exact ps : forall r, pipeline_exact_ok ps r = true ->
  rdocs_of (apply_pipeline ps r) = rewrite_pipeline ps (rdocs_of r).
Proof.
  unfold apply_pipeline, rewrite_pipeline. induction ps as [|p ps IH]; intros r H; [reflexivity|].
  apply andb_true_iff in H. destruct H as [H1 H2]. cbn [fold_left]. rewrite (IH _ H2), (pitem_exact _ _ H1). reflexivity.
Qed.

(* the domain used by the correspondence check (bit 4): one item - the semantic theorem; chains and
   nested pipelines - the exact theorem at every step, because semantic agreement does not compose: a
   later item reads the syntax of the tree an earlier one left *)
Definition pipeline_ok (ps : list pitem) (r : rule) : bool :=
  match ps with
  | [PItem c t] => negb (c_rule c) || rule_sem_ok c t r
  | _ => pipeline_exact_ok ps r
  end.

Theorem pipeline_sem ps r : pipeline_ok ps r = true ->
  forall asg, meanings asg (apply_pipeline ps r) = doc_meanings asg (rewrite_pipeline ps (rdocs_of r)).
Proof.
  intros H asg.
  (* in every shape but [PItem c t], pipeline_ok ps r is pipeline_exact_ok ps r by computation *)
  destruct ps as [|[c t | c items] [|q ps]]; try (apply exact_meanings, pipeline_exact, H).
  unfold pipeline_ok in H. unfold apply_pipeline, rewrite_pipeline. cbn [fold_left apply_pitem rewrite_pitem].
  unfold apply_item, rewrite_item. cbn [fst snd]. destruct (c_rule c); [|symmetry; apply doc_meanings_of].
  rewrite meanings_mark_rule. apply tspec_sem, H.
Qed.

Lemma map_dets_id f r : (forall d, f d = d) -> map_dets f r = r.
Proof. intros H. destruct r as [ds c fs ats]. unfold map_dets. cbn [r_dets]. rewrite (map_snd_id _ _ H). reflexivity. Qed.
Lemma marked_keep id im tr i : (im i = true -> tr i = Keep) -> rep_list i (marked id (gated im tr) i) = [DI i].
Proof. intros H. unfold marked, gated. destruct (im i); [rewrite H|]; reflexivity. Qed.

Definition is_rule_level (t : tspec) : bool :=
  match t with
  | TChangeLogsource _ _ _ | TSetCustom _ _ | TSetState _ _ | TAddField _ | TRemoveField _ | TSetField _ => true
  | _ => false
  end.
(* not for the field name mappings (afn_of t = None): they also rewrite r_fields, under fm_of c, of which
   the premise on im_of c says nothing (apply_fieldmap) *)
Lemma identity_scope c t r : is_addcond t = false -> is_rule_level t = false -> afn_of t = None ->
  (forall i, im_of c i = false) -> apply_tspec c t r = r.
Proof.
  intros Ha Hr Hf Him.
  assert (G : forall tr, map_dets (walk_top (marked (c_id c) (gated (im_of c) tr))) r = r).
  { intros tr. apply map_dets_id, walk_top_same. intros i. apply marked_keep. rewrite Him. discriminate. }
  destruct t; try discriminate; cbn [apply_tspec]; unfold apply_values; try apply G; try reflexivity.
  apply map_dets_id, walk_top_same. intros i. unfold gated. rewrite Him. reflexivity.
Qed.

Lemma identity_values c tv r : (forall f v, tv f v = None) -> apply_values c tv r = r.
Proof.
  intros H. apply map_dets_id, walk_top_same. intros i. apply marked_keep. intros _.
  rewrite value_item_spec. replace (touch_values tv i) with false; [reflexivity|].
  unfold touch_values. induction (i_vals i) as [|v vs IH]; [reflexivity|]. cbn [existsb]. rewrite H. exact IH.
Qed.

Lemma walk_top_sem_same asg tr :
  (forall i, sems asg (rep_list i (tr i)) = [sem_item asg i]) -> forall d, sem asg (walk_top tr d) = sem asg d.
Proof.
  intros H d. rewrite (walk_top_sem asg (fun _ => true) tr (fun i => Some (Entry i))).
  - rewrite subst_top_sem_same by reflexivity. apply eval_doc_of.
  - intros i _. apply H.
  - apply forall_items_true.
Qed.

Lemma fieldmap_item_none fm afn i : (forall f, afn f = FNone) -> rep_list i (fieldmap_item fm afn i) = [DI i].
Proof.
  intros H. unfold fieldmap_item. rewrite H, vals1_eq. cbn [fres_some andb].
  replace (flat_map (rename_ref fm afn) (i_vals i)) with (i_vals i).
  - rewrite same_or_keep, ditem_eta; reflexivity.
  - symmetry. apply flat_map_unit, Forall_forall. intros v _.
    destruct v as [[ | | | |? ?|g sw ew|? ?| ]|]; try reflexivity.
    unfold rename_ref, targets. rewrite H. destruct (fm (Some g)); reflexivity.
Qed.
Lemma identity_fieldmap asg c afn r : (forall f, afn f = FNone) ->
  meanings asg (apply_fieldmap c afn r) = meanings asg r /\
  r_cond (apply_fieldmap c afn r) = r_cond r /\ r_fields (apply_fieldmap c afn r) = r_fields r.
Proof.
  intros H. unfold apply_fieldmap. cbn [r_cond r_fields]. split; [|split; [reflexivity|]].
  - unfold meanings, map_dets. cbn [r_dets]. rewrite map_map. apply map_ext. intros [n d]. cbn [fst snd]. f_equal.
    apply walk_top_sem_same. intros i. rewrite sems_marked. unfold gated. destruct (im_of c i); [|reflexivity].
    rewrite (fieldmap_item_none _ _ _ H). reflexivity.
  - apply flat_map_unit, Forall_forall. intros f _. unfold afn_list. rewrite H. reflexivity.
Qed.

Lemma rw_replace_id asg c sub i : (forall p, sub p = p) ->
  evals asg (opt_list (scoped (im_of c) (smarked (c_id c) (touch_values (tv_replace sub)) (rw_values (tvs_replace sub))) i))
  = [sem_item asg i].
Proof.
  intros H. unfold scoped. destruct (im_of c i); [|reflexivity]. rewrite evals_smarked. unfold rw_values.
  rewrite flat_map_unit, ditem_eta; [reflexivity|]. apply Forall_forall. intros v _.
  destruct v as [[c0 s|n| | | | | | ]|]; try reflexivity; unfold tvs_replace; rewrite H, str_eqb_refl; reflexivity.
Qed.
Theorem identity_replace asg c tbl r :
  (forall p, tbl_sub tbl p = p) ->
  rule_ok (item_sem_ok c (TReplace tbl)) r = true ->
  meanings asg (apply_tspec c (TReplace tbl) r) = meanings asg r.
Proof.
  intros Hs Hok. rewrite tspec_sem by (unfold rule_sem_ok; rewrite Hok; apply orb_true_r).
  cbn [rewrite_tspec]. unfold doc_meanings, rdocs_of, meanings. rewrite !map_map. apply map_ext.
  intros [n d]. cbn [fst snd]. f_equal. rewrite <- eval_doc_of. apply subst_top_sem_same. intros i.
  apply (rw_replace_id asg c (tbl_sub tbl) i Hs).
Qed.

(* the rules, scopes and events of the refutations and examples of Props/C12.v, replayed against the real
   code by the correspondence corpus *)
Definition no_conds : conds := mkC None true [] false [] false [] false.
(* a keyword number mapped to a field keeps its exact-match form (D28); a number under replace_string (D30) *)
Definition asg_num (_ : option str) (a : aval) : bool := match a with ANum _ => true | _ => false end.
Definition kwnum_rule : rule := mkR [([115], DD [DI (mkI None [V (ANum [49])] false false [])] true)] [115] [].
Definition num_rule : rule := mkR [([115], DD [DI (mkI (Some [103]) [V (ANum [49; 50; 51])] false false [])] true)] [115] [].
(* x, backslash, wildcard *)
Definition bswild_rule : rule :=
  mkR [([115], DD [DI (mkI (Some [104]) [V (AStr false [PStr [120; 92]; PMulti])] false false [])] true)] [115] [].
Definition asg_wild (_ : option str) (a : aval) : bool :=
  match a with AStr _ s => contains_special s | _ => false end.

(* the repaired one-to-many mapping of a negated item: f|neq: v with f -> [a, b] means not (a=v or b=v) *)
Definition neq_rule : rule := mkR [([115], DD [DI (mkI (Some [102]) [V (AStr false [PStr [118]])] false true [])] true)] [115] [].

(* a later item scoped by processing_item_applied sees the marks of an earlier one also on the copies of a
   one-to-many mapping (fix ab135a8): case A; f -> [x, y] B; set_value Z if A applied *)
Definition chain_rule : rule := mkR [([115], DD [DI (mkI (Some [102]) [V (AStr false [PStr [118]])] false false [])] true)] [115] [].
Definition cA := mkC (Some [65]) true [] false [] false [] false.
Definition cC := mkC (Some [67]) true [] false [] false [IApplied [65]] false.

(* extract_fields drops the negation of the item it replaces (D34): r|neq: a, regex (?P<g>a) *)
Definition xneg_rule : rule := mkR [([115], DD [DI (mkI (Some [114]) [V (AStr false [PStr [97]])] false true [])] true)] [115] [].
Definition xneg_cfg : xcfg := mkX None false [([97], Some [([103], Some [97])])] [].

(* hashes_fields: [MD5=a, SHA1=b, MD5=c] with all three algorithms valid gives FileMD5: [a, c], FileSHA1: b *)
Definition hashes_rule : rule :=
  mkR [([115], DD [DI (mkI (Some [72]) [V (AStr false [PStr [77; 68; 53; 61; 97]]); V (AStr false [PStr [83; 72; 65; 49; 61; 98]]);
                                        V (AStr false [PStr [77; 68; 53; 61; 99]])] false false [])] true)] [115] [].
Definition hashes_cfg : hcfg := mkH [s_md5; s_sha1] [70] false [[72]].

(* a follower scoped by a logsource rule condition on an omitted attribute does not apply:
   logsource {category: process_creation, product: windows}; change_logsource service: sysmon; condition product: windows *)
Definition ls_rule : rule :=
  mkRule [([115], DD [DI (mkI (Some [102]) [V (AStr false [PStr [118]])] false false [])] true)] [115] []
         (mkA (Some [112; 99], (Some [119; 105; 110], None)) [] [] []).
Definition c_win : conds := mkC (Some [70]) false [RLogsource None (Some [119; 105; 110]) None] false [] false [] false.

(* keyword entry with the all modifier mapped to two fields: '|all': [a, b*] with null -> [m, r] is
   any of [{m|contains|all: [a, b*]}, {r|contains|all: [a, b*]}] *)
Definition kwall_rule : rule :=
  mkR [([115], DD [DI (mkI None [V (AStr false [PStr [97]]); V (AStr false [PStr [98]; PMulti])] true false [])] true)] [115] [].
