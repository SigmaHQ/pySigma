(* UTF-8: CPython's strict decoder (Model.Enc.utf8_dec) accepts exactly the UTF-8 forms of strings of Unicode scalar
   values and inverts the encoder, which makes the "encode as UTF-16, decode as UTF-8" trick of the wide modifiers
   byte-exact. Encoder and decoder are compared on base-64 digits (utf8_form): a character of the k-octet class is
   (..(d0 * 64 + d1) * 64 ..) + dk, its octets are a lead octet carrying d0 and continuation octets 128 + di, and
   every test of either side is linear in the digits. *)
From Coq Require Import NArith List Bool Lia ZifyBool.
From PS Require Import Base.Chars Spec.Utf Spec.B64 Model.Enc.
Import ListNotations.
Open Scope N_scope.

Lemma cont_digit d : d < 64 -> cont (128 + d) = true.
Proof. intros H. unfold cont. lia. Qed.

Lemma cont_inv b : cont b = true -> exists d, b = 128 + d /\ d < 64.
Proof. intros H. unfold cont in H. exists (b - 128). lia. Qed.

(* the decoder's bounds on the octet after the lead depend on whether the lead is a particular one (E0, ED, F0, F4):
   as a pair of implications lia can use them *)
Lemma if_eqb b k (x y : bool) : (if b =? k then x else y) = true <-> (b = k -> x = true) /\ (b <> k -> y = true).
Proof. destruct (N.eqb_spec b k); tauto. Qed.

(* a conditional is evaluated by deciding its test: no case analysis on the surrounding term *)
Lemma if_true {A} (b : bool) (x y z : A) : b = true -> x = z -> (if b then x else y) = z.
Proof. intros -> H. exact H. Qed.
Lemma if_false {A} (b : bool) (x y z : A) : b = false -> y = z -> (if b then x else y) = z.
Proof. intros -> H. exact H. Qed.

Lemma digit c : exists h l, c = h * 64 + l /\ l < 64.
Proof.
  exists (c / 64), (c mod 64). split; [rewrite N.mul_comm; apply N.div_mod' | apply N.mod_lt; lia].
Qed.
Lemma div64 h l : l < 64 -> (h * 64 + l) / 64 = h.
Proof. intros H. symmetry. apply N.div_unique with l; lia. Qed.
Lemma mod64 h l : l < 64 -> (h * 64 + l) mod 64 = l.
Proof. intros H. symmetry. apply N.mod_unique with h; lia. Qed.

(* digits of a scalar value of the class, by the range of its leading part d0 * 64 + d1: no overlong
   form (C0, C1; E0 80..9F; F0 80..8F), no surrogate (ED A0..BF), nothing above 10FFFF (F4 90.., F5..).
   The leading part of a three-octet form is c / 64: 32 = 800h / 64, 864 = D800h / 64, 896 = E000h / 64;
   of a four-octet form c / 4096: 16 = 10000h / 4096, 272 = 110000h / 4096. *)
Definition valid2 d0 d1 := d1 < 64 /\ 2 <= d0 /\ d0 < 32.
Definition valid3 d0 d1 d2 :=
  d1 < 64 /\ d2 < 64 /\ 32 <= d0 * 64 + d1 /\ d0 < 16 /\ (d0 * 64 + d1 < 864 \/ 896 <= d0 * 64 + d1).
Definition valid4 d0 d1 d2 d3 :=
  d1 < 64 /\ d2 < 64 /\ d3 < 64 /\ 16 <= d0 * 64 + d1 /\ d0 * 64 + d1 < 272.

Inductive utf8_form : char -> list N -> Prop :=
| form1 c : c < 128 -> utf8_form c [c]
| form2 d0 d1 : valid2 d0 d1 -> utf8_form (d0 * 64 + d1) [192 + d0; 128 + d1]
| form3 d0 d1 d2 : valid3 d0 d1 d2 ->
    utf8_form ((d0 * 64 + d1) * 64 + d2) [224 + d0; 128 + d1; 128 + d2]
| form4 d0 d1 d2 d3 : valid4 d0 d1 d2 d3 ->
    utf8_form (((d0 * 64 + d1) * 64 + d2) * 64 + d3) [240 + d0; 128 + d1; 128 + d2; 128 + d3].

Lemma form_enc c bs : utf8_form c bs -> utf8_char c = bs /\ scalar c = true.
Proof.
  intros [c' H | d0 d1 (L1 & Lo & Hi) | d0 d1 d2 (L1 & L2 & Lo & Hi & Su) | d0 d1 d2 d3 (L1 & L2 & L3 & Lo & Hi)];
    (split; [|unfold scalar; lia]).
  - apply if_true; [lia | reflexivity].
  - apply if_false; [lia|]. apply if_true; [lia|]. rewrite div64, mod64 by assumption. reflexivity.
  - do 2 (apply if_false; [lia|]). apply if_true; [lia|].
    change 4096 with (64 * 64). rewrite <- N.div_div, !div64, !mod64 by (assumption || lia). reflexivity.
  - do 3 (apply if_false; [lia|]). change 262144 with (64 * 64 * 64). change 4096 with (64 * 64).
    rewrite <- !N.div_div, !div64, !mod64 by (assumption || lia). reflexivity.
Qed.

Lemma form_dec c bs r : utf8_form c bs -> utf8_dec (bs ++ r) = option_map (cons c) (utf8_dec r).
Proof.
  (* The octets after the lead are set aside while the tests on the lead are decided: cbn would
     unfold the decoder on them as well, and Qed would have to follow it. *)
  intros [c' H | d0 d1 (L1 & Lo & Hi) | d0 d1 d2 (L1 & L2 & Lo & Hi & Su) | d0 d1 d2 d3 (L1 & L2 & L3 & Lo & Hi)];
    rewrite <- app_comm_cons; set (t := _ ++ r); cbn [utf8_dec].
  - apply if_true; [lia | reflexivity].
  - do 2 (apply if_false; [lia|]). apply if_true; [lia|]. subst t. cbn [app]. rewrite cont_digit by assumption.
    do 2 f_equal. lia.
  - do 3 (apply if_false; [lia|]). apply if_true; [lia|]. subst t. cbn [app].
    apply if_true; [|do 2 f_equal; lia].
    rewrite cont_digit, andb_true_r, andb_true_iff, !if_eqb by assumption. lia.
  - do 4 (apply if_false; [lia|]). apply if_true; [lia|]. subst t. cbn [app].
    apply if_true; [|do 2 f_equal; lia].
    rewrite !cont_digit, !andb_true_r, andb_true_iff, !if_eqb by assumption. lia.
Qed.

Lemma scalar_form c : scalar c = true -> utf8_form c (utf8_char c).
Proof.
  intros Hs. unfold scalar in Hs.
  assert (F : exists bs, utf8_form c bs).
  { destruct (N.lt_ge_cases c 128) as [E0 | E0]; [eexists; apply form1, E0|].
    destruct (digit c) as (q & d & -> & L).
    destruct (N.lt_ge_cases q 32) as [E1 | E1]; [eexists; apply form2; unfold valid2; lia|].
    destruct (digit q) as (q' & d' & -> & L').
    destruct (N.lt_ge_cases q' 16) as [E2 | E2]; [eexists; apply form3; unfold valid3; lia|].
    destruct (digit q') as (q'' & d'' & -> & L'').
    eexists. apply form4. unfold valid4. lia. }
  destruct F as [bs F]. rewrite (proj1 (form_enc c bs F)). exact F.
Qed.

Lemma le_diff a b : a <= b -> exists d, b = a + d.
Proof. exists (b - a). lia. Qed.

Lemma dec2 b0 b1 r : (b0 <? 194) = false -> (b0 <? 224) = true -> cont b1 = true ->
  exists c f r', utf8_form c f /\ b0 :: b1 :: r = f ++ r'.
Proof.
  intros H0 H1 (d1 & -> & L1)%cont_inv. destruct (le_diff 192 b0) as [d0 ->]; [lia|].
  exists (d0 * 64 + d1), [192 + d0; 128 + d1], r. split; [apply form2; unfold valid2; lia | reflexivity].
Qed.

Lemma dec3 b0 b1 b2 r : (b0 <? 224) = false -> (b0 <? 240) = true ->
  (if b0 =? 224 then 160 <=? b1 else 128 <=? b1) && (if b0 =? 237 then b1 <=? 159 else b1 <=? 191)
    && cont b2 = true ->
  exists c f r', utf8_form c f /\ b0 :: b1 :: b2 :: r = f ++ r'.
Proof.
  intros H0 H1. destruct (le_diff 224 b0) as [d0 ->]; [lia|].
  intros [[T%if_eqb T'%if_eqb]%andb_prop (d2 & -> & L2)%cont_inv]%andb_prop. destruct (le_diff 128 b1) as [d1 ->]; [lia|].
  exists ((d0 * 64 + d1) * 64 + d2), [224 + d0; 128 + d1; 128 + d2], r. split; [apply form3; unfold valid3; lia | reflexivity].
Qed.

Lemma dec4 b0 b1 b2 b3 r : (b0 <? 240) = false -> (b0 <? 245) = true ->
  (if b0 =? 240 then 144 <=? b1 else 128 <=? b1) && (if b0 =? 244 then b1 <=? 143 else b1 <=? 191)
    && cont b2 && cont b3 = true ->
  exists c f r', utf8_form c f /\ b0 :: b1 :: b2 :: b3 :: r = f ++ r'.
Proof.
  intros H0 H1. destruct (le_diff 240 b0) as [d0 ->]; [lia|].
  intros [[[T%if_eqb T'%if_eqb]%andb_prop (d2 & -> & L2)%cont_inv]%andb_prop (d3 & -> & L3)%cont_inv]%andb_prop.
  destruct (le_diff 128 b1) as [d1 ->]; [lia|].
  exists (((d0 * 64 + d1) * 64 + d2) * 64 + d3), [240 + d0; 128 + d1; 128 + d2; 128 + d3], r.
  split; [apply form4; unfold valid4; lia | reflexivity].
Qed.

Lemma if_some {A} (t : bool) (x : option A) y : (if t then x else None) = Some y -> t = true.
Proof. destruct t; [reflexivity | discriminate]. Qed.

Lemma utf8_dec_inv bs s : utf8_dec bs = Some s ->
  bs = [] \/ exists c f r, utf8_form c f /\ bs = f ++ r.
Proof.
  destruct bs as [|b0 r0]; [left; reflexivity|]. intros T. right. cbn [utf8_dec] in T.
  destruct (b0 <? 128) eqn:E0.
  { exists b0, [b0], r0. split; [apply form1; lia | reflexivity]. }
  destruct (b0 <? 194) eqn:E1; [discriminate|].
  destruct (b0 <? 224) eqn:E2.
  { destruct r0 as [|b1 r1]; [discriminate|]. exact (dec2 b0 b1 r1 E1 E2 (if_some _ _ _ T)). }
  destruct (b0 <? 240) eqn:E3.
  { destruct r0 as [|b1 [|b2 r2]]; try discriminate. exact (dec3 b0 b1 b2 r2 E2 E3 (if_some _ _ _ T)). }
  destruct (b0 <? 245) eqn:E4; [|discriminate].
  destruct r0 as [|b1 [|b2 [|b3 r3]]]; try discriminate. exact (dec4 b0 b1 b2 b3 r3 E3 E4 (if_some _ _ _ T)).
Qed.

Lemma utf8_cons c s : utf8 (c :: s) = utf8_char c ++ utf8 s.
Proof. reflexivity. Qed.
Lemma utf8_app a b : utf8 (a ++ b) = utf8 a ++ utf8 b.
Proof. unfold utf8. apply flat_map_app. Qed.
Lemma utf8_char_nonempty c : utf8_char c <> [].
Proof. unfold utf8_char. destruct (c <? 128), (c <? 2048), (c <? 65536); discriminate. Qed.

Lemma utf8_dec_char c rest : scalar c = true ->
  utf8_dec (utf8_char c ++ rest) = option_map (cons c) (utf8_dec rest).
Proof. intros F%scalar_form. apply form_dec, F. Qed.

Theorem utf8_dec_complete s : forallb scalar s = true -> utf8_dec (utf8 s) = Some s.
Proof.
  induction s as [|c s IH]; intros H; [reflexivity|].
  cbn [forallb] in H. apply andb_true_iff in H. destruct H as [Hc Hs].
  rewrite utf8_cons, utf8_dec_char, IH by assumption. reflexivity.
Qed.

Corollary utf8_dec_none bs : utf8_dec bs = None -> forall s, forallb scalar s = true -> utf8 s <> bs.
Proof.
  intros H s Hs E. subst bs. rewrite utf8_dec_complete in H by exact Hs. discriminate.
Qed.

Theorem utf8_dec_sound bs s : utf8_dec bs = Some s -> utf8 s = bs /\ forallb scalar s = true.
Proof.
  (* every step of the decoder puts one character in front of the result, so the induction is on the result *)
  revert bs. induction s as [|c s IH]; intros bs H;
    destruct (utf8_dec_inv bs _ H) as [-> | (c' & f & r & F & ->)]; try discriminate.
  - split; reflexivity.
  - rewrite (form_dec _ _ r F) in H. destruct (utf8_dec r); discriminate.
  - rewrite (form_dec _ _ r F) in H. destruct (utf8_dec r) as [s'|] eqn:Hr; [|discriminate].
    injection H as -> ->. destruct (form_enc _ _ F) as [<- Sc], (IH r Hr) as [<- Ss].
    cbn [forallb]. rewrite Sc, Ss. split; reflexivity.
Qed.

Lemma bytes_ok_flat_map {A} (f : A -> list N) l :
  (forall x, In x l -> bytes_ok (f x) = true) -> bytes_ok (flat_map f l) = true.
Proof.
  intros H. apply forallb_forall. intros b Hb. apply in_flat_map in Hb. destruct Hb as (x & Hx & Hb).
  exact (proj1 (forallb_forall _ _) (H x Hx) b Hb).
Qed.

Lemma scalars_ok (f : char -> list N) s : (forall c, scalar c = true -> bytes_ok (f c) = true) ->
  forallb scalar s = true -> bytes_ok (flat_map f s) = true.
Proof.
  intros Hf H. apply bytes_ok_flat_map. intros c Hc. exact (Hf c (proj1 (forallb_forall _ _) H c Hc)).
Qed.

Lemma scalar_lt c : scalar c = true -> c < 1114112.
Proof. unfold scalar. lia. Qed.

Lemma utf8_char_ok c : c < 1114112 -> bytes_ok (utf8_char c) = true.
Proof.
  (* not through utf8_form: a surrogate has none *)
  intros H. unfold utf8_char, bytes_ok, byte_ok.
  pose proof (N.mod_lt c 64). pose proof (N.mod_lt (c / 64) 64). pose proof (N.mod_lt (c / 4096) 64).
  destruct (c <? 128) eqn:E0; [cbn [forallb]; lia|].
  destruct (c <? 2048) eqn:E1; [assert (c / 64 < 32) by (apply N.div_lt_upper_bound; lia); cbn [forallb]; lia|].
  destruct (c <? 65536) eqn:E2; [assert (c / 4096 < 16) by (apply N.div_lt_upper_bound; lia); cbn [forallb]; lia|].
  assert (c / 262144 < 16) by (apply N.div_lt_upper_bound; lia). cbn [forallb]. lia.
Qed.
Lemma utf8_ok s : forallb scalar s = true -> bytes_ok (utf8 s) = true.
Proof. exact (scalars_ok utf8_char s (fun c H => utf8_char_ok c (scalar_lt c H))). Qed.

Lemma utf16_units_lt c u : c < 1114112 -> In u (utf16_units c) -> u < 65536.
Proof.
  intros Hs. unfold utf16_units. destruct (c <? 65536) eqn:E; cbn [In]; [lia|].
  (* the halves of a surrogate pair: c - 65536 < 1024 * 1024 *)
  assert ((c - 65536) / 1024 < 1024) by (apply N.div_lt_upper_bound; lia).
  assert ((c - 65536) mod 1024 < 1024) by (apply N.mod_lt; lia). lia.
Qed.
Lemma halves_ok u : u < 65536 -> byte_ok (u mod 256) = true /\ byte_ok (u / 256) = true.
Proof.
  intros H. unfold byte_ok. split; apply N.ltb_lt; [apply N.mod_lt | apply N.div_lt_upper_bound]; lia.
Qed.
Lemma le2_ok u : u < 65536 -> bytes_ok (le2 u) = true.
Proof. intros [A B]%halves_ok. unfold le2, bytes_ok. cbn [forallb]. rewrite A, B. reflexivity. Qed.
Lemma be2_ok u : u < 65536 -> bytes_ok (be2 u) = true.
Proof. intros [A B]%halves_ok. unfold be2, bytes_ok. cbn [forallb]. rewrite A, B. reflexivity. Qed.

Lemma utf16le_char_ok c : c < 1114112 -> bytes_ok (utf16le_char c) = true.
Proof. intros H. apply bytes_ok_flat_map. intros u Hu. eapply le2_ok, utf16_units_lt; eassumption. Qed.
Lemma utf16be_char_ok c : c < 1114112 -> bytes_ok (utf16be_char c) = true.
Proof. intros H. apply bytes_ok_flat_map. intros u Hu. eapply be2_ok, utf16_units_lt; eassumption. Qed.

Lemma utf16le_ok s : forallb scalar s = true -> bytes_ok (utf16le s) = true.
Proof. exact (scalars_ok utf16le_char s (fun c H => utf16le_char_ok c (scalar_lt c H))). Qed.
Lemma utf16be_ok s : forallb scalar s = true -> bytes_ok (utf16be s) = true.
Proof. exact (scalars_ok utf16be_char s (fun c H => utf16be_char_ok c (scalar_lt c H))). Qed.
