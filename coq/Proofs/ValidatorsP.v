(* C19 - the validators of Model/Validators.v.  A run of validate_rules either raises or returns pure_validate
   (validate_returns).  Everything else is read off that closed form: membership by the kind of an issue
   (pure_validate_In), the tables through their keys (v_finalize_keys), the keys and the paths under a file
   name as the values seen, each added when it is first met (keys_eq, paths_eq). *)
From Coq Require Import NArith List Bool Arith Permutation Lia.
From PS Require Import Base.Chars Base.Outcome Model.VCond Model.Validators Spec.ValidatorsSpec Proofs.CharsP.
From PS Require Spec.Glob Proofs.GlobP.
Import ListNotations.
Open Scope N_scope.

(* What a run returns, in the terms in which Props/C19.v states it.  pure_validate is the result of a run in
   which nothing raises: for each rule r what the validators that run on r return for it (rule_part, the sum of
   contrib over the validators; okl is what a check returned, nothing if it raised), then what finalize() of
   each instance yields in the state the rules it is not excluded for have left (facc, final_part).  ikey is the
   rule an issue is attached to (None: an issue of finalize()), of_kind v selects the issues of validator v,
   seen E v rules are the rules v is not excluded for. *)
Definition okl {A} (x : outcome (list A)) : list A := match x with Ok l => l | _ => [] end.

Definition contrib (E : excl) (r : rule) (v : vkind) : list issue :=
  if excluded E r v then [] else okl (v_check v r).
(* = flat_map (contrib E r) vs *)
Definition rule_part (E : excl) (vs : list vkind) (r : rule) : list issue :=
  flat_map (fun v => if excluded E r v then [] else okl (v_check v r)) vs.
Definition facc (E : excl) (v : vkind) (rules : list rule) (s : vstate) : vstate :=
  fold_left (fun s r => if excluded E r v then s else v_acc v s r) rules s.
Definition final_part (E : excl) (vs : list vkind) (rules : list rule) : list issue :=
  flat_map (fun v => v_finalize v (facc E v rules s_init)) vs.
Definition pure_validate (E : excl) (vs : list vkind) (rules : list rule) : list issue :=
  flat_map (rule_part E vs) rules ++ final_part E vs rules.

Definition ikey (i : issue) : option N :=
  match i with IUnused k _ | IDangling k _ | INoId k => Some k | _ => None end.
Definition of_kind (v : vkind) (i : issue) : bool := vkind_eqb (kind_of i) v.
Definition seen (E : excl) (v : vkind) (rules : list rule) : list rule :=
  filter (fun r => negb (excluded E r v)) rules.

(* Glob, globb, any_suffix and star_any are those of the condition model of C02 under
   the names of this model (the functions are the same terms, the relation has the same rules), so that the
   oracle's test globb decides Glob by Proofs/GlobP.v; the implementation's matcher, run on the compiled
   pattern, computes the same function (rmatch_compile): "*" and ".*" both mean that some suffix of the
   name matches the rest of the pattern. *)
Lemma Glob_copy p n : Glob p n <-> Spec.Glob.Glob p n.
Proof. split; induction 1; constructor; assumption. Qed.

Theorem globb_Glob p n : globb p n = true <-> Glob p n.
Proof. rewrite Glob_copy. apply GlobP.globb_Glob. Qed.

Lemma rmatch_compile p n : rmatch (compile p) n = globb p n.
Proof.
  revert n. induction p as [|c p IH]; intros n; simpl; [reflexivity|].
  destruct (c =? c_star); simpl.
  - apply GlobP.star_any_ext, IH.
  - destruct n; [reflexivity|]. rewrite IH. reflexivity.
Qed.

Lemma sel_regex_selectedb p n :
  (rmatch (sel_regex p) n && (starts_us p || negb (starts_us n))) = selectedb p n.
Proof.
  unfold sel_regex, selectedb. change starts_us with us.
  f_equal. destruct (str_eqb p w_them); simpl.
  - apply some_suffix_end. reflexivity.
  - apply rmatch_compile.
Qed.

Theorem selectedb_Selected p n : selectedb p n = true <-> Selected p n.
Proof.
  unfold selectedb, Selected.
  rewrite andb_true_iff, !orb_true_iff, str_eqb_eq, globb_Glob, negb_true_iff. reflexivity.
Qed.

Theorem resolve_spec D p n : In n (resolve D p) <-> In n D /\ Selected p n.
Proof.
  unfold resolve. rewrite filter_In, sel_regex_selectedb, selectedb_Selected. reflexivity.
Qed.

Lemma resolve_nil_Unmatched D p : resolve D p = [] <-> Unmatched D p.
Proof.
  unfold Unmatched. split.
  - intros H n Hn Hs. apply (in_nil (a := n)). rewrite <- H. apply resolve_spec. auto.
  - intros H. destruct (resolve D p) as [|n l] eqn:E; [reflexivity|].
    destruct (proj1 (resolve_spec D p n)) as [Hn Hs]; [rewrite E; left; reflexivity|].
    destruct (H n Hn Hs).
Qed.

Theorem unmatchedb_Unmatched D p : unmatchedb D p = true <-> Unmatched D p.
Proof.
  unfold unmatchedb, Unmatched. rewrite negb_true_iff, <- not_true_iff_false, existsb_exists. split.
  - intros H n Hn Hs. apply H. exists n. split; [exact Hn | apply selectedb_Selected, Hs].
  - intros H (n & Hn & Hs). apply (H n Hn), selectedb_Selected, Hs.
Qed.

Section PInd.
  Variable P : ptree -> Prop.
  Hypothesis Hid : forall n, P (PId n).
  Hypothesis Hsel : forall q p, P (PSel q p).
  Hypothesis Hnot : forall a, P a -> P (PNot a).
  Hypothesis Hand : forall l, Forall P l -> P (PAnd l).
  Hypothesis Hor : forall l, Forall P l -> P (POr l).
  Fixpoint ptree_ind' (t : ptree) : P t :=
    let fix all l : Forall P l :=
      match l with [] => Forall_nil P | x :: r => Forall_cons x (ptree_ind' x) (all r) end in
    match t with
    | PId n => Hid n
    | PSel q p => Hsel q p
    | PNot a => Hnot a (ptree_ind' a)
    | PAnd l => Hand l (all l)
    | POr l => Hor l (all l)
    end.
End PInd.

(* the step for PAnd and POr: membership in flat_map and truth of existsb are both "for some a in l" *)
Lemma Forall_ex_iff {A} (P Q : A -> Prop) l :
  Forall (fun a => P a <-> Q a) l -> ((exists a, In a l /\ P a) <-> exists a, In a l /\ Q a).
Proof.
  rewrite Forall_forall. intros H.
  split; intros (a & Ha & X); exists a; (split; [exact Ha | apply (H a Ha), X]).
Qed.

Theorem refs_spec D t n : In n (refs D t) <-> Refers D t n.
Proof.
  split.
  - induction t as [m|q p|a IH|l IH|l IH] using ptree_ind'; simpl.
    4, 5: rewrite Forall_forall in IH; intros (a & Ha & H)%in_flat_map; econstructor; eauto.
    + intros [<-|[]]. constructor.
    + intros []%resolve_spec. constructor; assumption.
    + intros H. apply rf_not, IH, H.
  - induction 1 as [m|q p m Hm Hs|a m _ IH|l a m Ha _ IH|l a m Ha _ IH]; simpl.
    4, 5: apply in_flat_map; eauto.
    + auto.
    + apply resolve_spec; auto.
    + exact IH.
Qed.

Theorem sel_pats_HasSel t p : In p (sel_pats t) <-> HasSel t p.
Proof.
  split.
  - induction t as [m|q p0|a IH|l IH|l IH] using ptree_ind'; simpl.
    4, 5: rewrite Forall_forall in IH; intros (a & Ha & H)%in_flat_map; econstructor; eauto.
    + intros [].
    + intros [<-|[]]. constructor.
    + intros H. apply hs_not, IH, H.
  - induction 1 as [q p|a p _ IH|l a p Ha _ IH|l a p Ha _ IH]; simpl.
    3, 4: apply in_flat_map; eauto.
    + auto.
    + exact IH.
Qed.

Lemma mem_str_In n l : mem_str n l = true <-> In n l.
Proof. exact (existsb_str_In n l). Qed.

Lemma refersb_refs D n t : refersb D n t = true <-> In n (refs D t).
Proof.
  induction t as [m|q p|a IH|l IH|l IH] using ptree_ind'; simpl.
  4, 5: rewrite existsb_exists, in_flat_map; apply Forall_ex_iff, IH.
  - rewrite str_eqb_eq. split; [auto | intros [H|[]]; exact H].
  - rewrite andb_true_iff, mem_str_In, selectedb_Selected. symmetry. apply resolve_spec.
  - exact IH.
Qed.

Theorem refersb_Refers D n t : refersb D n t = true <-> Refers D t n.
Proof. rewrite refersb_refs. apply refs_spec. Qed.

Lemma unknown_sel_pats D t p : In p (unknown D t) <-> In p (sel_pats t) /\ Unmatched D p.
Proof.
  induction t as [m|q p0|a IH|l IH|l IH] using ptree_ind'; simpl.
  4, 5: rewrite !in_flat_map, (Forall_ex_iff _ _ _ IH);
    split; [intros (a & Ha & H & U) | intros [(a & Ha & H) U]]; eauto.
  - tauto.
  - rewrite <- resolve_nil_Unmatched. destruct (resolve D p0) eqn:E.
    + split; [intros [<-|[]]; auto | intros [H _]; exact H].
    + split; [intros [] | intros [[<-|[]] U]; congruence].
  - exact IH.
Qed.

Theorem unknown_spec D t p : In p (unknown D t) <-> HasSel t p /\ Unmatched D p.
Proof. rewrite unknown_sel_pats, sel_pats_HasSel. reflexivity. Qed.

Lemma dedup_In n l : In n (dedup l) <-> In n l.
Proof. exact (sdedup_In n l). Qed.

(* The lists over which the two reference validators map their issue: v_check VUnused r and v_check VDangling r
   are, by conversion, the `if` of ref_check_iff below at names := unused_names r and dangling_pats r, which is
   how unused_iff and dangling_iff apply it. *)
Definition unused_names (r : rule) (ts : list ptree) : list str :=
  filter (fun n => negb (mem_str n (flat_map (refs (r_dets r)) ts))) (dedup (r_dets r)).

Lemma unused_names_In r ts n :
  In n (unused_names r ts) <-> In n (r_dets r) /\ ~ exists t, In t ts /\ Refers (r_dets r) t n.
Proof.
  unfold unused_names.
  rewrite filter_In, dedup_In, negb_true_iff, <- not_true_iff_false, mem_str_In, in_flat_map.
  setoid_rewrite refs_spec. reflexivity.
Qed.

Definition dangling_pats (r : rule) (ts : list ptree) : list str :=
  dedup (flat_map (unknown (r_dets r)) ts).

Lemma dangling_pats_In r ts p :
  In p (dangling_pats r ts) <-> (exists t, In t ts /\ HasSel t p) /\ Unmatched (r_dets r) p.
Proof.
  unfold dangling_pats. rewrite dedup_In, in_flat_map. setoid_rewrite unknown_spec.
  split; [intros (t & Ht & H & U) | intros [(t & Ht & H) U]]; eauto.
Qed.

Lemma ref_check_iff (mk : N -> str -> issue) (names : list ptree -> list str) r k x :
  (forall a b c d, mk a b = mk c d -> a = c /\ b = d) ->
  In (mk k x) (okl (if r_corr r then Ok []
                    else obind (parse_all (r_conds r)) (fun ts => Ok (map (mk (r_key r)) (names ts))))) <->
  r_key r = k /\ r_corr r = false /\ exists ts, parse_all (r_conds r) = Ok ts /\ In x (names ts).
Proof.
  intros Hmk. destruct (r_corr r); simpl; [split; [intros [] | intros (_ & [=] & _)]|].
  destruct (parse_all (r_conds r)) as [ts| |]; simpl.
  2, 3: split; [intros [] | intros (_ & _ & ts & [=] & _)].
  rewrite in_map_iff. split.
  - intros (y & [-> ->]%Hmk & H). eauto.
  - intros (<- & _ & ts' & [= <-] & H). eauto.
Qed.

Theorem unused_iff r k n :
  In (IUnused k n) (okl (v_check VUnused r)) <->
  r_key r = k /\ r_corr r = false /\ exists ts, parse_all (r_conds r) = Ok ts /\
    In n (r_dets r) /\ ~ exists t, In t ts /\ Refers (r_dets r) t n.
Proof.
  setoid_rewrite <- unused_names_In. apply (ref_check_iff IUnused). intros a b c d [= -> ->]. auto.
Qed.

Theorem dangling_iff r k p :
  In (IDangling k p) (okl (v_check VDangling r)) <->
  r_key r = k /\ r_corr r = false /\ exists ts, parse_all (r_conds r) = Ok ts /\
    (exists t, In t ts /\ HasSel t p) /\ Unmatched (r_dets r) p.
Proof.
  setoid_rewrite <- dangling_pats_In. apply (ref_check_iff IDangling). intros a b c d [= -> ->]. auto.
Qed.

(* only the two reference validators can raise, and only on a condition that does not parse *)
Theorem v_check_raises v r :
  (forall l, v_check v r <> Ok l) ->
  (v = VUnused \/ v = VDangling) /\ r_corr r = false /\ forall ts, parse_all (r_conds r) <> Ok ts.
Proof.
  intros H. destruct v; simpl in H; try (edestruct H; reflexivity).
  1, 2: destruct (r_corr r); [edestruct H; reflexivity|]; repeat split; auto;
        intros ts Hts; rewrite Hts in H; edestruct H; reflexivity.
  destruct (r_id r); edestruct H; reflexivity.
Qed.

Lemma v_check_parse r v l :
  (v = VUnused \/ v = VDangling) -> r_corr r = false -> v_check v r = Ok l ->
  exists ts, parse_all (r_conds r) = Ok ts.
Proof.
  intros [-> | ->] Hc; simpl; rewrite Hc.
  all: destruct (parse_all (r_conds r)) as [ts| |]; [eauto | discriminate ..].
Qed.

Definition origin (v : vkind) (k : option N) (i : issue) : Prop := kind_of i = v /\ ikey i = k.

Lemma map_shape {X} (P : issue -> Prop) (mk : X -> issue) xs :
  (forall x, P (mk x)) -> FinFun.Injective mk -> NoDup xs ->
  NoDup (map mk xs) /\ forall i, In i (map mk xs) -> P i.
Proof.
  intros HP Hi Hn. split; [apply FinFun.Injective_map_NoDup; assumption|].
  intros i (x & <- & _)%in_map_iff. apply HP.
Qed.

Lemma okl_shape v r :
  NoDup (okl (v_check v r)) /\ forall i, In i (okl (v_check v r)) -> origin v (Some (r_key r)) i.
Proof.
  destruct v; simpl; try (split; [constructor | intros ? []]).
  1, 2: destruct (r_corr r), (parse_all (r_conds r)); simpl; try (split; [constructor | intros ? []]);
    apply map_shape; [split; reflexivity | intros x y [= ->]; reflexivity | auto using NoDup_filter, sdedup_NoDup].
  destruct (r_id r); simpl; [split; [constructor | intros ? []]|].
  split; [repeat constructor; intros [] | intros i [<-|[]]; split; reflexivity].
Qed.

Lemma contrib_shape E r v :
  NoDup (contrib E r v) /\ forall i, In i (contrib E r v) -> origin v (Some (r_key r)) i.
Proof. unfold contrib. destruct (excluded E r v); [split; [constructor | intros ? []] | apply okl_shape]. Qed.

Lemma contrib_kind E r v i : In i (contrib E r v) -> kind_of i = v.
Proof. intros H. apply (contrib_shape E r v), H. Qed.

Lemma v_finalize_origin v s i : In i (v_finalize v s) -> origin v None i.
Proof.
  destruct v; simpl; try (intros []); intros (x & _ & H)%in_flat_map;
    (destruct (_ <? _)%nat; [destruct H as [<-|[]]; split; reflexivity | destruct H]).
Qed.

Lemma v_finalize_kind v s i : In i (v_finalize v s) -> kind_of i = v.
Proof. intros H. apply (v_finalize_origin _ _ _ H). Qed.

Definition is_ok {A} (x : outcome A) : bool := match x with Ok _ => true | _ => false end.

Definition checks_ok (E : excl) (vs : list vkind) (r : rule) : bool :=
  forallb (fun v => excluded E r v || is_ok (v_check v r)) vs.
Definition all_ok (E : excl) (vs : list vkind) (rules : list rule) : bool :=
  forallb (checks_ok E vs) rules.

Lemma all_ok_iff E vs rules :
  all_ok E vs rules = true <->
  forall r v, In r rules -> In v vs -> excluded E r v = false -> exists l, v_check v r = Ok l.
Proof.
  unfold all_ok, checks_ok. rewrite forallb_forall. setoid_rewrite forallb_forall. split.
  - intros H r v Hr Hv Ex. specialize (H r Hr v Hv). rewrite Ex in H.
    destruct (v_check v r); try discriminate. eauto.
  - intros H r Hr v Hv. destruct (excluded E r v) eqn:Ex; [reflexivity|].
    destruct (H r v Hr Hv Ex) as [l ->]. reflexivity.
Qed.

(* The instances of a run: their states are a function of the validator and not a list beside vs, since two
   instances of one validator start alike and see the same rules, so they are in the same state throughout. *)
Definition insts (vs : list vkind) (st : vkind -> vstate) : list inst := map (fun v => (v, st v)) vs.

(* x raises unless b holds, and then returns a *)
Definition returns {A} (x : outcome A) (b : bool) (a : A) : Prop :=
  match x with Ok y => b = true /\ y = a | _ => b = false end.

Lemma returns_iff {A} (x : outcome A) b a y : returns x b a -> (x = Ok y <-> b = true /\ y = a).
Proof.
  destruct x; simpl; [intros [-> ->] | intros -> ..].
  2, 3: split; [discriminate | intros [[=] _]].
  split; [intros [= <-]; auto | intros [_ ->]; reflexivity].
Qed.

Lemma returns_bind {A B} (x : outcome A) (f : A -> outcome B) b c a d :
  returns x b a -> returns (f a) c d -> returns (obind x f) (b && c) d.
Proof. destruct x; simpl; [intros [-> ->] H; exact H | intros -> _; reflexivity ..]. Qed.

Lemma returns_map {A B} (g : A -> B) (x : outcome A) b a :
  returns x b a -> returns (obind x (fun y => Ok (g y))) b (g a).
Proof. destruct x; simpl; [intros [-> ->]; auto | auto ..]. Qed.

Lemma returns_okl {A} (x : outcome (list A)) : returns x (is_ok x) (okl x).
Proof. destruct x; simpl; auto. Qed.

Lemma validate_rule_returns E r vs st :
  returns (validate_rule E (insts vs st) r) (checks_ok E vs r)
          (rule_part E vs r, insts vs (fun v => facc E v [r] (st v))).
Proof.
  induction vs as [|v vs IH]; simpl; [split; reflexivity|].
  destruct (excluded E r v); simpl.
  - apply returns_map with (1 := IH).
  - eapply returns_bind; [apply returns_map, returns_okl | apply returns_map with (1 := IH)].
Qed.

Lemma validate_loop_returns E vs rules : forall st,
  returns (validate_loop E (insts vs st) rules) (all_ok E vs rules)
          (flat_map (rule_part E vs) rules, insts vs (fun v => facc E v rules (st v))).
Proof.
  induction rules as [|r rules IH]; intros st; simpl; [split; reflexivity|].
  eapply returns_bind; [apply validate_rule_returns|].
  exact (returns_map (fun x => (rule_part E vs r ++ fst x, snd x)) _ _ _ (IH _)).
Qed.

Lemma finalize_insts vs st : finalize (insts vs st) = flat_map (fun v => v_finalize v (st v)) vs.
Proof. apply flat_map_map. Qed.

Lemma validate_returns E vs rules :
  returns (validate E vs rules) (all_ok E vs rules) (pure_validate E vs rules).
Proof.
  unfold pure_validate, final_part. rewrite <- finalize_insts.
  exact (returns_map (fun x => fst x ++ finalize (snd x)) _ _ _ (validate_loop_returns E vs rules (fun _ => s_init))).
Qed.

Lemma final_part_app E vs rules rules' :
  final_part E vs (rules ++ rules') =
  flat_map (fun v => v_finalize v (facc E v rules' (facc E v rules s_init))) vs.
Proof. apply flat_map_ext. intros v. apply f_equal, fold_left_app. Qed.

(* The same SigmaValidator validating the collection again: finalize() does not reset the tables, so the
   instances go on from the state the first call left, and at the end report what one call on the
   collection followed by itself would. *)
Lemma validate_twice_returns E vs rules :
  returns (validate_twice E vs rules) (all_ok E vs rules)
          (pure_validate E vs rules, flat_map (rule_part E vs) rules ++ final_part E vs (rules ++ rules)).
Proof.
  rewrite <- (andb_diag (all_ok E vs rules)).
  eapply returns_bind; [apply (validate_loop_returns E vs rules (fun _ => s_init))|].
  unfold pure_validate. rewrite final_part_app. unfold final_part. rewrite <- !finalize_insts.
  exact (returns_map (fun y => (_, fst y ++ finalize (snd y))) _ _ _ (validate_loop_returns E vs rules _)).
Qed.

Theorem validate_iff E vs rules l :
  validate E vs rules = Ok l <-> all_ok E vs rules = true /\ l = pure_validate E vs rules.
Proof. apply returns_iff, validate_returns. Qed.

Theorem validate_ok_iff E vs rules :
  (exists l, validate E vs rules = Ok l) <->
  forall r v, In r rules -> In v vs -> excluded E r v = false -> exists l, v_check v r = Ok l.
Proof.
  rewrite <- all_ok_iff. setoid_rewrite validate_iff. split; [intros (l & H & _); exact H | eauto].
Qed.

Lemma in_flat_map_kind (f : vkind -> list issue) vs i :
  (forall v i, In i (f v) -> kind_of i = v) ->
  (In i (flat_map f vs) <-> In (kind_of i) vs /\ In i (f (kind_of i))).
Proof.
  intros Hf. rewrite in_flat_map. split; [|eauto].
  intros (v & Hv & H). rewrite (Hf v i H). auto.
Qed.

Lemma rule_part_In E vs r i :
  In i (rule_part E vs r) <->
  In (kind_of i) vs /\ excluded E r (kind_of i) = false /\ In i (okl (v_check (kind_of i) r)).
Proof.
  unfold rule_part. rewrite (in_flat_map_kind (contrib E r)) by apply contrib_kind.
  apply and_iff_compat_l. unfold contrib. destruct (excluded E r (kind_of i)).
  - split; [intros [] | intros [[=] _]].
  - split; [auto | intros [_ H]; exact H].
Qed.

Lemma final_part_In E vs rules i :
  In i (final_part E vs rules) <->
  In (kind_of i) vs /\ In i (v_finalize (kind_of i) (facc E (kind_of i) rules s_init)).
Proof. apply in_flat_map_kind. intros v. apply v_finalize_kind. Qed.

Lemma rule_part_ikey E vs r i : In i (rule_part E vs r) -> ikey i = Some (r_key r).
Proof. intros (_ & _ & H%okl_shape)%rule_part_In. apply H. Qed.

Lemma final_part_ikey E vs rules i : In i (final_part E vs rules) -> ikey i = None.
Proof. intros [_ H%v_finalize_origin]%final_part_In. apply H. Qed.

Lemma pure_validate_In E vs rules i :
  In i (pure_validate E vs rules) <->
  (exists r, In r rules /\ In (kind_of i) vs /\ excluded E r (kind_of i) = false /\
             In i (okl (v_check (kind_of i) r)))
  \/ (In (kind_of i) vs /\ In i (v_finalize (kind_of i) (facc E (kind_of i) rules s_init))).
Proof.
  unfold pure_validate. rewrite in_app_iff, in_flat_map, final_part_In.
  setoid_rewrite rule_part_In. reflexivity.
Qed.

(* The validators with a table return nothing for a rule and report in finalize(); the others return their
   issues rule by rule and finalize() to nothing.  So the kind of an issue says which half of pure_validate_In
   it can come from. *)
Definition has_tbl (v : vkind) : bool := match v with VIdUniq | VTitle | VFile => true | _ => false end.

Lemma pure_validate_In_rule E vs rules i :
  has_tbl (kind_of i) = false ->
  (In i (pure_validate E vs rules) <->
   exists r, In r rules /\ In (kind_of i) vs /\ excluded E r (kind_of i) = false /\
             In i (okl (v_check (kind_of i) r))).
Proof.
  intros Hv. rewrite pure_validate_In. split; [|auto].
  intros [H|[_ H]]; [exact H|]. destruct (kind_of i); try discriminate; destruct H.
Qed.

Lemma pure_validate_In_final E vs rules i :
  has_tbl (kind_of i) = true ->
  (In i (pure_validate E vs rules) <->
   In (kind_of i) vs /\ In i (v_finalize (kind_of i) (facc E (kind_of i) rules s_init))).
Proof.
  intros Hv. rewrite pure_validate_In. split; [|auto].
  intros [(r & _ & _ & _ & H)|H]; [|exact H]. destruct (kind_of i); try discriminate; destruct H.
Qed.

(* ref_check_iff in a run: mk is the issue of reference validator v, P what it reports of a rule *)
Lemma validate_ref_iff v (mk : N -> str -> issue) (P : rule -> list ptree -> str -> Prop) E vs rules l k x :
  (forall k x, kind_of (mk k x) = v) -> has_tbl v = false ->
  (forall r, In (mk k x) (okl (v_check v r)) <->
             r_key r = k /\ r_corr r = false /\ exists ts, parse_all (r_conds r) = Ok ts /\ P r ts x) ->
  validate E vs rules = Ok l ->
  (In (mk k x) l <->
   exists r ts, In r rules /\ r_key r = k /\ In v vs /\ excluded E r v = false /\
                r_corr r = false /\ parse_all (r_conds r) = Ok ts /\ P r ts x).
Proof.
  intros Hk Hv Hc [_ ->]%validate_iff. rewrite pure_validate_In_rule by (rewrite Hk; exact Hv). rewrite Hk. split.
  - intros (r & Hr & Hin & Ex & (Hkey & Hcorr & ts & Hp & H)%Hc). exists r, ts. auto 8.
  - intros (r & ts & Hr & Hkey & Hin & Ex & Hcorr & Hp & H). exists r.
    repeat (split; [assumption|]). apply Hc. eauto.
Qed.

Theorem validate_unused_iff E vs rules l k n :
  validate E vs rules = Ok l ->
  (In (IUnused k n) l <->
   exists r ts, In r rules /\ r_key r = k /\ In VUnused vs /\ excluded E r VUnused = false /\
                r_corr r = false /\ parse_all (r_conds r) = Ok ts /\
                In n (r_dets r) /\ ~ exists t, In t ts /\ Refers (r_dets r) t n).
Proof.
  apply (validate_ref_iff VUnused IUnused (fun r ts n => In n (r_dets r) /\ ~ exists t, In t ts /\ Refers (r_dets r) t n));
    [reflexivity | reflexivity | intros r; apply unused_iff].
Qed.

Theorem validate_dangling_iff E vs rules l k p :
  validate E vs rules = Ok l ->
  (In (IDangling k p) l <->
   exists r ts, In r rules /\ r_key r = k /\ In VDangling vs /\ excluded E r VDangling = false /\
                r_corr r = false /\ parse_all (r_conds r) = Ok ts /\
                (exists t, In t ts /\ HasSel t p) /\ Unmatched (r_dets r) p).
Proof.
  apply (validate_ref_iff VDangling IDangling (fun r ts p => (exists t, In t ts /\ HasSel t p) /\ Unmatched (r_dets r) p));
    [reflexivity | reflexivity | intros r; apply dangling_iff].
Qed.

Lemma keyed_issue_origin E vs rules i k :
  In i (pure_validate E vs rules) -> ikey i = Some k ->
  exists r, In r rules /\ excluded E r (kind_of i) = false /\ r_key r = k.
Proof.
  intros [(r & Hr & _ & Ex & [_ Hi]%okl_shape)|[_ [_ Hi]%v_finalize_origin]]%pure_validate_In Hk.
  - exists r. intuition congruence.
  - congruence.
Qed.

(* an issue that carries the key of a rule for which its validator is excluded stems from another rule with
   that key *)
Theorem excluded_silent E vs rules l i r :
  validate E vs rules = Ok l -> In i l -> In r rules -> excluded E r (kind_of i) = true ->
  match i with
  | IUnused k _ | IDangling k _ | INoId k => k <> r_key r \/ exists r', In r' rules /\ r' <> r /\ r_key r' = k
  | _ => True
  end.
Proof.
  intros [_ ->]%validate_iff Hi Hr Ex.
  assert (X : forall k, ikey i = Some k -> exists r', In r' rules /\ r' <> r /\ r_key r' = k).
  { intros k Hk. destruct (keyed_issue_origin _ _ _ _ _ Hi Hk) as (r' & Hr' & Ex' & Hk').
    exists r'. repeat split; auto. intros ->. congruence. }
  destruct i; try exact I; right; apply X; reflexivity.
Qed.

(* Both tables of the metadata validators are dicts that are updated at a key (aget, aupd of CharsP): the table
   of rule numbers appends under the key, the table of paths adds to the set under it. *)
Lemma tbl_get_aget x t : tbl_get x t = aget [] x t.
Proof. unfold aget. induction t as [|[k v] t IH]; simpl; [|rewrite IH; destruct (str_eqb x k)]; reflexivity. Qed.

Lemma tbl_add_aupd k r t : tbl_add k r t = aupd [] (fun rs => rs ++ [r]) k t.
Proof. induction t as [|[k' rs] t IH]; simpl; [|rewrite IH]; reflexivity. Qed.

Definition tbl_wf (t : tbl) : Prop :=
  NoDup (map fst t) /\ forall k rs, In (k, rs) t -> rs = tbl_get k t.

Lemma tbl_get_notin x t : ~ In x (map fst t) -> tbl_get x t = [].
Proof. rewrite tbl_get_aget. apply aget_notin. Qed.

Lemma NoDup_tbl_wf t : NoDup (map fst t) -> tbl_wf t.
Proof.
  intros Hn. split; [exact Hn|]. intros k rs H. rewrite (by_keys [] t Hn) in H.
  apply in_map_iff in H. destruct H as (x & [= <- <-] & _). symmetry. apply tbl_get_aget.
Qed.

Lemma path_eqb_eq a b : path_eqb a b = true <-> a = b.
Proof. apply list_eqb_eq. exact str_eqb_eq. Qed.

Lemma ptbl_add_aupd k p t : ptbl_add k p t = aupd [] (fun ps => add_new path_eqb ps p) k t.
Proof. induction t as [|[k' ps] t IH]; simpl; [|rewrite IH]; reflexivity. Qed.

Lemma facc_cons E v r rules s :
  facc E v (r :: rules) s = facc E v rules (if excluded E r v then s else v_acc v s r).
Proof. reflexivity. Qed.

(* an observation of the state to which every visited rule adds its items *)
Lemma facc_obs {X Y} E v (obs : vstate -> X) (add : X -> Y -> X) (items : rule -> list Y) :
  (forall s r, obs (if excluded E r v then s else v_acc v s r) = fold_left add (items r) (obs s)) ->
  forall rules s, obs (facc E v rules s) = fold_left add (flat_map items rules) (obs s).
Proof.
  intros H. induction rules as [|r rules IH]; intros s; [reflexivity|].
  rewrite facc_cons, IH, H. symmetry. apply fold_left_app.
Qed.

Definition seen_val (E : excl) (v : vkind) (r : rule) : option str :=
  if excluded E r v then None else val_of v r.

Lemma step_tbl E v s r :
  s_tbl (if excluded E r v then s else v_acc v s r) =
  match seen_val E v r with Some x => tbl_add x (r_key r) (s_tbl s) | None => s_tbl s end.
Proof.
  unfold seen_val. destruct (excluded E r v); [reflexivity|].
  destruct v; simpl; try reflexivity;
    [destruct (r_id r) | destruct (r_title r) | destruct (r_path r)]; reflexivity.
Qed.

(* what validator v enters in its table: for each rule it sees, the rule's value and its number *)
Definition seen_pairs (E : excl) (v : vkind) (rules : list rule) : list (str * N) :=
  flat_map (fun r => match seen_val E v r with Some x => [(x, r_key r)] | None => [] end) rules.

Definition tbl_step (t : tbl) (p : str * N) : tbl := tbl_add (fst p) (snd p) t.

Lemma tbl_step_aupd t p : tbl_step t p = aupd [] (fun rs => rs ++ [snd p]) (fst p) t.
Proof. apply tbl_add_aupd. Qed.

Lemma tbl_seen E v rules : s_tbl (facc E v rules s_init) = fold_left tbl_step (seen_pairs E v rules) [].
Proof.
  refine (facc_obs E v s_tbl _ _ _ rules s_init). intros s r.
  rewrite step_tbl. destruct (seen_val E v r); reflexivity.
Qed.

Lemma seen_group E v rules x : avals x (seen_pairs E v rules) = group E v rules x.
Proof.
  unfold avals, seen_pairs, group. induction rules as [|r rules IH]; [reflexivity|].
  simpl. rewrite filter_app, map_app, IH. unfold seen_val, has_val.
  destruct (excluded E r v); [reflexivity|]. destruct (val_of v r) as [y|]; simpl; [|reflexivity].
  destruct (str_eqb y x); reflexivity.
Qed.

Definition seen_path (E : excl) (r : rule) : option (list str) :=
  if excluded E r VFile then None else r_path r.

Lemma step_paths E s r :
  s_paths (if excluded E r VFile then s else v_acc VFile s r) =
  match seen_path E r with Some p => ptbl_add (path_name p) p (s_paths s) | None => s_paths s end.
Proof.
  unfold seen_path. destruct (excluded E r VFile); [reflexivity|]. simpl. destruct (r_path r); reflexivity.
Qed.

Lemma seen_val_path E r : seen_val E VFile r = option_map path_name (seen_path E r).
Proof. unfold seen_val, seen_path. destruct (excluded E r VFile); reflexivity. Qed.

Definition named_paths (E : excl) (rules : list rule) (x : str) : list (list str) :=
  flat_map (fun r => match seen_path E r with
                     | Some p => if str_eqb (path_name p) x then [p] else []
                     | None => [] end) rules.

Lemma named_paths_In E rules x p :
  In p (named_paths E rules x) <->
  exists r, In r rules /\ excluded E r VFile = false /\ r_path r = Some p /\ path_name p = x.
Proof.
  unfold named_paths, seen_path. rewrite in_flat_map.
  split; intros (r & Hr & H); exists r; (split; [exact Hr|]).
  - destruct (excluded E r VFile); [destruct H|]. destruct (r_path r) as [q|]; [|destruct H].
    destruct (str_eqb (path_name q) x) eqn:En; [|destruct H].
    destruct H as [<-|[]]. apply str_eqb_eq in En. auto.
  - destruct H as (-> & -> & <-). rewrite str_eqb_refl. left. reflexivity.
Qed.

Definition keys (E : excl) (v : vkind) (rules : list rule) : list str :=
  map fst (s_tbl (facc E v rules s_init)).
Definition paths (E : excl) (rules : list rule) (x : str) : list (list str) :=
  aget [] x (s_paths (facc E VFile rules s_init)).

Lemma keys_eq E v rules : keys E v rules = fold_left (add_new str_eqb) (map fst (seen_pairs E v rules)) [].
Proof. unfold keys. rewrite tbl_seen. apply (group_keys tbl_step tbl_step_aupd). Qed.

Lemma keys_NoDup E v rules : NoDup (keys E v rules).
Proof. rewrite keys_eq. apply (adds_NoDup _ str_eqb_eq). constructor. Qed.

Lemma tbl_get_group E v rules x : tbl_get x (s_tbl (facc E v rules s_init)) = group E v rules x.
Proof. rewrite tbl_get_aget, tbl_seen, (group_get tbl_step tbl_step_aupd). apply seen_group. Qed.

Lemma path_keys E rules : map fst (s_paths (facc E VFile rules s_init)) = keys E VFile rules.
Proof.
  rewrite keys_eq. unfold seen_pairs. rewrite map_flat_map.
  refine (facc_obs E VFile (fun s => map fst (s_paths s)) _ _ _ rules s_init). intros s r.
  rewrite step_paths, seen_val_path. destruct (seen_path E r); [rewrite ptbl_add_aupd; apply keys_aupd | reflexivity].
Qed.

Lemma paths_eq E rules x : paths E rules x = fold_left (add_new path_eqb) (named_paths E rules x) [].
Proof.
  refine (facc_obs E VFile (fun s => aget [] x (s_paths s)) _ _ _ rules s_init). intros s r.
  rewrite step_paths. destruct (seen_path E r) as [p|]; [|reflexivity].
  rewrite ptbl_add_aupd, aget_aupd. destruct (str_eqb (path_name p) x); reflexivity.
Qed.

Lemma paths_NoDup E rules x : NoDup (paths E rules x).
Proof. rewrite paths_eq. apply (adds_NoDup _ path_eqb_eq). constructor. Qed.

Lemma paths_In E rules x q : In q (paths E rules x) <-> In q (named_paths E rules x).
Proof. rewrite paths_eq, (adds_In _ path_eqb_eq). simpl. tauto. Qed.

(* the constructor of a validator's group issue, and the count that decides whether it is reported; they mean
   something for the validators with a table only (has_tbl v), what they are for the others is arbitrary *)
Definition gmk (v : vkind) : list N -> str -> issue :=
  match v with VIdUniq => IIdColl | VTitle => ITitle | _ => IFile end.
Definition gsize (E : excl) (v : vkind) (rules : list rule) (x : str) : nat :=
  match v with VFile => length (paths E rules x) | _ => length (group E v rules x) end.

Lemma gmk_inj v a x b y : gmk v a x = gmk v b y -> a = b /\ x = y.
Proof. destruct v; intros [= -> ->]; auto. Qed.

Lemma tbl_eq E v rules :
  s_tbl (facc E v rules s_init) = map (fun x => (x, group E v rules x)) (keys E v rules).
Proof.
  rewrite keys_eq, tbl_seen, (group_closed tbl_step tbl_step_aupd).
  apply map_ext. intros x. rewrite seen_group. reflexivity.
Qed.

Lemma ptbl_eq E rules :
  s_paths (facc E VFile rules s_init) = map (fun x => (x, paths E rules x)) (keys E VFile rules).
Proof. rewrite <- path_keys. apply (by_keys []). rewrite path_keys. apply keys_NoDup. Qed.

Lemma v_finalize_keys E v rules :
  has_tbl v = true ->
  v_finalize v (facc E v rules s_init) =
  flat_map (fun x => if (1 <? gsize E v rules x)%nat then [gmk v (group E v rules x) x] else [])
           (keys E v rules).
Proof.
  destruct v; try discriminate; intros _; simpl.
  1, 2: rewrite tbl_eq, flat_map_map; reflexivity.
  rewrite ptbl_eq, flat_map_map. apply flat_map_ext. intros x. simpl.
  rewrite tbl_get_group. reflexivity.
Qed.

Lemma gsize_notin E v rules x : ~ In x (keys E v rules) -> gsize E v rules x = 0%nat.
Proof.
  intros N. unfold gsize. rewrite <- tbl_get_group, tbl_get_notin by exact N.
  destruct v; try reflexivity. unfold paths. rewrite aget_notin by (rewrite path_keys; exact N). reflexivity.
Qed.

Lemma key_present E v rules x : (1 <= gsize E v rules x)%nat -> In x (keys E v rules).
Proof.
  intros H. destruct (in_dec (list_eq_dec N.eq_dec) x (keys E v rules)) as [Hx|N]; [exact Hx|].
  rewrite (gsize_notin _ _ _ _ N) in H. lia.
Qed.

Lemma final_group_In E v rules ks x :
  has_tbl v = true ->
  (In (gmk v ks x) (v_finalize v (facc E v rules s_init)) <->
   ks = group E v rules x /\ (2 <= gsize E v rules x)%nat).
Proof.
  intros Hv. rewrite v_finalize_keys, in_flat_map by exact Hv. split.
  - intros (y & _ & H). destruct (Nat.ltb_spec 1 (gsize E v rules y)); [|destruct H].
    destruct H as [H|[]]. apply gmk_inj in H. destruct H as [<- <-]. auto.
  - intros [-> H]. exists x. split; [apply key_present; lia|].
    destruct (Nat.ltb_spec 1 (gsize E v rules x)); [left; reflexivity | exfalso; lia].
Qed.

Theorem validate_group_iff E vs rules l v ks x :
  has_tbl v = true -> validate E vs rules = Ok l ->
  (In (gmk v ks x) l <-> In v vs /\ ks = group E v rules x /\ (2 <= gsize E v rules x)%nat).
Proof.
  intros Hv [_ ->]%validate_iff.
  assert (Hk : kind_of (gmk v ks x) = v) by (destruct v; try discriminate; reflexivity).
  rewrite pure_validate_In_final, Hk by (rewrite Hk; exact Hv). rewrite final_group_In by exact Hv. reflexivity.
Qed.

Lemma NoDup_two {A} (l : list A) :
  NoDup l -> ((2 <= length l)%nat <-> exists a b, In a l /\ In b l /\ a <> b).
Proof.
  intros H. split.
  - destruct H as [|a [|b l] Ha _]; simpl; try lia. intros _. exists a, b.
    repeat split; auto. intros ->. apply Ha. left. reflexivity.
  - intros (a & b & Ha & Hb & Hab). destruct l as [|x [|y l]]; simpl in *; try lia; intuition congruence.
Qed.

Lemma two_paths_iff E rules x : (2 <= length (paths E rules x))%nat <-> two_paths E rules x.
Proof.
  rewrite (NoDup_two _ (paths_NoDup E rules x)). unfold two_paths. split.
  - intros (a & b & (r1 & A1 & A2 & A3 & A4)%paths_In%named_paths_In
                    & (r2 & B1 & B2 & B3 & B4)%paths_In%named_paths_In & Hab).
    exists r1, r2, a, b. repeat split; assumption.
  - intros (r1 & r2 & p1 & p2 & A1 & B1 & A2 & B2 & A3 & B3 & A4 & B4 & Hne).
    exists p1, p2. split; [|split; [|exact Hne]]; apply paths_In, named_paths_In; eauto.
Qed.

Theorem groups_exact E vs rules l :
  validate E vs rules = Ok l ->
  (forall ks x, In (IIdColl ks x) l <-> In VIdUniq vs /\ ks = group E VIdUniq rules x /\ (2 <= length ks)%nat) /\
  (forall ks x, In (ITitle ks x) l <-> In VTitle vs /\ ks = group E VTitle rules x /\ (2 <= length ks)%nat) /\
  (forall ks x, In (IFile ks x) l <-> In VFile vs /\ ks = group E VFile rules x /\ two_paths E rules x).
Proof.
  intros H. split; [|split]; intros ks x.
  - rewrite (validate_group_iff E vs rules l VIdUniq ks x eq_refl H). simpl.
    split; intros (Hv & -> & L); auto.
  - rewrite (validate_group_iff E vs rules l VTitle ks x eq_refl H). simpl.
    split; intros (Hv & -> & L); auto.
  - rewrite (validate_group_iff E vs rules l VFile ks x eq_refl H). simpl.
    rewrite two_paths_iff. reflexivity.
Qed.

Lemma vkind_eqb_eq a b : vkind_eqb a b = true <-> a = b.
Proof. split; [destruct a, b; (reflexivity || discriminate) | intros ->; destruct b; reflexivity]. Qed.

Lemma filter_flat_map {A B} (p : B -> bool) (f : A -> list B) l :
  filter p (flat_map f l) = flat_map (fun a => filter p (f a)) l.
Proof. induction l as [|a l IH]; simpl; [reflexivity|]. rewrite filter_app, IH. reflexivity. Qed.

Lemma flat_map_filter {A B} (c : A -> bool) (f : A -> list B) l :
  flat_map f (filter c l) = flat_map (fun a => if c a then f a else []) l.
Proof. induction l as [|a l IH]; simpl; [reflexivity|]. destruct (c a); simpl; rewrite IH; reflexivity. Qed.

Lemma filter_kind v v' l :
  (forall i, In i l -> kind_of i = v') -> filter (of_kind v) l = if vkind_eqb v' v then l else [].
Proof.
  induction l as [|i l IH]; simpl; intros Hl; [destruct (vkind_eqb v' v); reflexivity|].
  unfold of_kind at 1. rewrite (Hl i), IH by auto. destruct (vkind_eqb v' v); reflexivity.
Qed.

Section KindFilter.
  Variables (v : vkind) (f : vkind -> list issue).
  Hypothesis Hf : forall v' i, In i (f v') -> kind_of i = v'.

  Lemma filter_kind_notin vs : ~ In v vs -> filter (of_kind v) (flat_map f vs) = [].
  Proof.
    induction vs as [|a vs IH]; simpl; intros Hv; [reflexivity|].
    rewrite filter_app, (filter_kind v a (f a) (Hf a)), IH by tauto.
    destruct (vkind_eqb a v) eqn:Ea; [|reflexivity]. apply vkind_eqb_eq in Ea. tauto.
  Qed.

  Lemma filter_kind_flat_map vs : NoDup vs -> In v vs -> filter (of_kind v) (flat_map f vs) = f v.
  Proof.
    induction 1 as [|a vs Ha Hn IH]; intros Hv; [destruct Hv|]. simpl.
    rewrite filter_app, (filter_kind v a (f a) (Hf a)).
    destruct Hv as [->|Hv].
    - rewrite (proj2 (vkind_eqb_eq v v) eq_refl), filter_kind_notin by exact Ha. apply app_nil_r.
    - rewrite IH by exact Hv. destruct (vkind_eqb a v) eqn:Ea; [|reflexivity].
      apply vkind_eqb_eq in Ea. subst. contradiction.
  Qed.
End KindFilter.

Lemma facc_seen E v rules : forall s, facc E v rules s = facc [] v (seen E v rules) s.
Proof.
  induction rules as [|r rules IH]; intros s; [reflexivity|]. rewrite facc_cons. simpl.
  destruct (excluded E r v); simpl; apply IH.
Qed.

Lemma pure_validate_one E v rules :
  pure_validate E [v] rules = flat_map (fun r => contrib E r v) rules ++ v_finalize v (facc E v rules s_init).
Proof.
  unfold pure_validate, final_part, rule_part. simpl. rewrite app_nil_r. f_equal.
  apply flat_map_ext. intros r. apply app_nil_r.
Qed.

Theorem pure_validate_project E vs rules v :
  NoDup vs -> In v vs -> filter (of_kind v) (pure_validate E vs rules) = pure_validate E [v] rules.
Proof.
  intros Hn Hv. rewrite pure_validate_one. unfold pure_validate. rewrite filter_app, filter_flat_map. f_equal.
  - apply flat_map_ext. intros r. apply (filter_kind_flat_map v (contrib E r) (contrib_kind E r)); assumption.
  - apply (filter_kind_flat_map v (fun v => v_finalize v (facc E v rules s_init))); auto.
    intros v'. apply v_finalize_kind.
Qed.

Theorem pure_validate_seen E v rules : pure_validate E [v] rules = pure_validate [] [v] (seen E v rules).
Proof.
  rewrite !pure_validate_one, <- facc_seen. unfold seen. rewrite flat_map_filter. f_equal.
  apply flat_map_ext. intros r. unfold contrib. destruct (excluded E r v); reflexivity.
Qed.

Theorem exclusions_exact E vs rules l v :
  validate E vs rules = Ok l -> NoDup vs -> In v vs ->
  validate [] [v] (seen E v rules) = Ok (filter (of_kind v) l).
Proof.
  intros [Hok ->]%validate_iff Hn Hv. apply validate_iff. split.
  - apply all_ok_iff. intros r v' [Hr Ex]%filter_In [<-|[]] _. apply negb_true_iff in Ex.
    exact (proj1 (all_ok_iff _ _ _) Hok r v Hr Hv Ex).
  - rewrite pure_validate_project, pure_validate_seen by assumption. reflexivity.
Qed.

Lemma ieq_refl i : ieq i i.
Proof. destruct i; simpl; auto. Qed.

Lemma MEquiv_perm l l' : Permutation l l' -> MEquiv l l'.
Proof.
  intros H. exists l'. split; [exact H|]. clear H. induction l'; constructor; auto using ieq_refl.
Qed.

Lemma MEquiv_app a a' b b' : MEquiv a a' -> MEquiv b b' -> MEquiv (a ++ b) (a' ++ b').
Proof.
  intros (m1 & P1 & F1) (m2 & P2 & F2). exists (m1 ++ m2).
  split; [apply Permutation_app | apply Forall2_app]; assumption.
Qed.

Lemma MEquiv_flat_map {A} (f f' : A -> list issue) K K' :
  Permutation K K' -> (forall x, MEquiv (f x) (f' x)) -> MEquiv (flat_map f K) (flat_map f' K').
Proof.
  intros P H.
  assert (X : forall L, MEquiv (flat_map f L) (flat_map f' L)).
  { induction L; simpl; [apply MEquiv_perm; constructor | apply MEquiv_app; auto]. }
  destruct (X K') as (m & Pm & F). exists m. split; [|exact F].
  etransitivity; [apply Permutation_flat_map, P | exact Pm].
Qed.

Section RulesPermuted.
  Variables (E : excl) (rules rules' : list rule).
  Hypothesis P : Permutation rules rules'.

  Lemma group_perm v x : Permutation (group E v rules x) (group E v rules' x).
  Proof. apply Permutation_map, filter_perm, P. Qed.

  Lemma keys_perm v : Permutation (keys E v rules) (keys E v rules').
  Proof. rewrite !keys_eq. apply (adds_perm _ str_eqb_eq), Permutation_map, Permutation_flat_map, P. Qed.

  Lemma paths_perm x : Permutation (paths E rules x) (paths E rules' x).
  Proof. rewrite !paths_eq. apply (adds_perm _ path_eqb_eq), Permutation_flat_map, P. Qed.

  Lemma gsize_perm v x : gsize E v rules x = gsize E v rules' x.
  Proof. destruct v; simpl; apply Permutation_length; try apply group_perm. apply paths_perm. Qed.

  Lemma finalize_perm v :
    MEquiv (v_finalize v (facc E v rules s_init)) (v_finalize v (facc E v rules' s_init)).
  Proof.
    destruct (has_tbl v) eqn:Hv.
    - rewrite !v_finalize_keys by exact Hv. apply MEquiv_flat_map; [apply keys_perm|]. intros x.
      rewrite gsize_perm. destruct (1 <? gsize E v rules' x)%nat; [|apply MEquiv_perm; constructor].
      exists [gmk v (group E v rules x) x]. split; [reflexivity|]. constructor; [|constructor].
      pose proof (group_perm v x). destruct v; simpl; auto.
    - destruct v; try discriminate; apply MEquiv_perm; constructor.
  Qed.
End RulesPermuted.

Lemma pure_validate_perm E vs vs' rules rules' :
  Permutation vs vs' -> Permutation rules rules' ->
  MEquiv (pure_validate E vs rules) (pure_validate E vs' rules').
Proof.
  intros Pv Pr. apply MEquiv_app; apply MEquiv_flat_map; auto.
  - intros r. apply MEquiv_perm, Permutation_flat_map, Pv.
  - intros v. apply finalize_perm, Pr.
Qed.

Lemma all_ok_perm E vs vs' rules rules' :
  Permutation vs vs' -> Permutation rules rules' -> all_ok E vs rules = all_ok E vs' rules'.
Proof.
  intros Pv Pr. apply eq_true_iff_eq. rewrite !all_ok_iff.
  split; intros H r v Hr%(Permutation_in' eq_refl Pr) Hv%(Permutation_in' eq_refl Pv); auto.
Qed.

Theorem order_independent E vs vs' rules rules' :
  Permutation vs vs' -> Permutation rules rules' ->
  match validate E vs rules, validate E vs' rules' with
  | Ok l, Ok l' => MEquiv l l'
  | Ok _, _ | _, Ok _ => False
  | _, _ => True
  end.
Proof.
  intros Pv Pr.
  pose proof (validate_returns E vs rules) as A. pose proof (validate_returns E vs' rules') as B.
  rewrite (all_ok_perm E vs vs' rules rules' Pv Pr) in A.
  destruct (validate E vs rules), (validate E vs' rules'); simpl in A, B; try exact I.
  1: destruct A as [_ ->], B as [_ ->]; apply pure_validate_perm; assumption.
  1, 2: destruct A as [A _]; congruence.
  all: destruct B as [B _]; congruence.
Qed.

(* lists whose elements carry the distinct labels of their indices are disjoint *)
Lemma NoDup_flat_map_label {A B L} (lab : B -> L) (key : A -> L) (f : A -> list B) l :
  NoDup (map key l) -> (forall a, NoDup (f a)) -> (forall a x, In x (f a) -> lab x = key a) ->
  NoDup (flat_map f l).
Proof.
  intros Hk Hf Hl. induction l as [|a l IH]; simpl; [constructor|].
  apply NoDup_cons_iff in Hk. destruct Hk as [Ha Hk]. apply NoDup_app_intro; auto.
  intros x Hx (b & Hb & Hxb)%in_flat_map. apply Ha. rewrite <- (Hl a x Hx), (Hl b x Hxb).
  apply in_map, Hb.
Qed.

Lemma rule_part_NoDup E vs r : NoDup vs -> NoDup (rule_part E vs r).
Proof.
  intros Hv. apply (NoDup_flat_map_label kind_of (fun v => v) (contrib E r)).
  - rewrite map_id. exact Hv.
  - intros v. apply contrib_shape.
  - apply contrib_kind.
Qed.

Lemma v_finalize_NoDup E v rules : NoDup (v_finalize v (facc E v rules s_init)).
Proof.
  destruct (has_tbl v) eqn:Hv; [|destruct v; try discriminate; constructor].
  rewrite v_finalize_keys by exact Hv.
  apply (NoDup_flat_map_label (fun i => i) (fun x => gmk v (group E v rules x) x)).
  - apply FinFun.Injective_map_NoDup; [|apply keys_NoDup]. intros x y H. apply (gmk_inj _ _ _ _ _ H).
  - intros x. destruct (_ <? _)%nat; repeat constructor. intros [].
  - intros x i H. destruct (_ <? _)%nat; [|destruct H]. destruct H as [<-|[]]. reflexivity.
Qed.

Theorem validate_NoDup E vs rules l :
  validate E vs rules = Ok l -> NoDup vs -> NoDup (map r_key rules) -> NoDup l.
Proof.
  (* disjointness by label, three times: the rules' parts from the finalisation by ikey (Some / None), the
     rules' parts from one another by ikey (the keys of the rules differ), within either the validators'
     shares by kind_of *)
  intros [_ ->]%validate_iff Hv Hk.
  apply NoDup_app_intro.
  - apply (NoDup_flat_map_label ikey (fun r => Some (r_key r))).
    + rewrite <- (map_map r_key Some). apply FinFun.Injective_map_NoDup; [|exact Hk].
      intros a b [= ->]. reflexivity.
    + intros r. apply rule_part_NoDup, Hv.
    + intros r i. apply rule_part_ikey.
  - apply (NoDup_flat_map_label kind_of (fun v => v)); [rewrite map_id; exact Hv| |].
    + intros v. apply v_finalize_NoDup.
    + intros v. apply v_finalize_kind.
  - intros i (r & _ & H1%rule_part_ikey)%in_flat_map H2%final_part_ikey. congruence.
Qed.

Lemma v_check_NoDup v r l : v_check v r = Ok l -> NoDup l.
Proof. intros H. pose proof (okl_shape v r) as [X _]. rewrite H in X. exact X. Qed.

Theorem second_run_per_rule E vs rules l1 l2 :
  validate_twice E vs rules = Ok (l1, l2) ->
  exists F1 F2,
    l1 = flat_map (rule_part E vs) rules ++ F1 /\ l2 = flat_map (rule_part E vs) rules ++ F2 /\
    Forall (fun i => ikey i = None) F1 /\ Forall (fun i => ikey i = None) F2.
Proof.
  intros [_ [= -> ->]]%(returns_iff _ _ _ _ (validate_twice_returns E vs rules)).
  eexists _, _. repeat split; try reflexivity; apply Forall_forall, final_part_ikey.
Qed.

Theorem rule_part_alone E vs rules l r :
  validate E vs rules = Ok l -> In r rules ->
  validate E vs [r] = Ok (rule_part E vs r ++ final_part E vs [r]) /\
  (forall i, In i (rule_part E vs r) -> In i l).
Proof.
  intros [Hok ->]%validate_iff Hr. split.
  - apply validate_iff. split; [|unfold pure_validate; simpl; rewrite app_nil_r; reflexivity].
    rewrite all_ok_iff in *. intros r' v [<-|[]]. apply Hok, Hr.
  - intros i Hi. apply in_or_app. left. apply in_flat_map. eauto.
Qed.
