(* C01 - the converted query is logically equivalent to the Sigma rule: the structural part (AND/OR/NOT,
   grouping by target precedence, in-list shortcut, expansions, exists/NOT forms), the choice of string
   operators, the leaves and in-lists as the verification backend renders them, the lexing of whole queries, the
   query text end to end, the parser's fuel, and the numbering of the reference predicates. *)
From Coq Require Import List Arith.
From PS Require Import Model.Backend Spec.Target Proofs.BackendP Proofs.BackendDomP.
From PS Require Import Base.Outcome Model.SString Model.StrOp Spec.Items Proofs.StrOpP.
Import ListNotations.

(* For every backend configuration (any of the six precedence orders, parenthesize, in-list
   flags, with or without wildcards in lists) and every condition tree in the domain, the emitted
   token sequence, read by the target language's own precedence rules, denotes exactly the boolean
   function of the tree - for every truth assignment of the atomic predicates.
   Domain (wfb): operators/expansions have arguments; in not-equals mode a NOT stands directly
   above a leaf with a negated template; the NOT(exists) rewrite needs NOT to bind tightest. *)
Theorem C01_structure : forall K asg c, cfg_ok K = true -> wfb K c = true ->
  exists f, pe (lvl K) asg f 3 (conv K false c) = Some (den asg c, []).
Proof. exact structure_b. Qed.
Print Assumptions C01_structure.

Theorem C01_fuel_irrelevant : forall K asg f f' i ts x, cfg_ok K = true ->
  pe (lvl K) asg f i ts = Some x -> f <= f' -> pe (lvl K) asg f' i ts = Some x.
Proof. intros K asg f f' i ts x _. exact (pe_mono K asg f f' i ts x). Qed.
Print Assumptions C01_fuel_irrelevant.

(* FULL STATEMENT in not-equals mode (forall c, ...) is false of the faithful model: *)
Theorem C01_noteq_group_refuted : exists c asg, tparse lvl_std asg (conv K_ne false c) <> Some (den asg c).
Proof. exact noteq_group_refuted. Qed.
Print Assumptions C01_noteq_group_refuted.
Theorem C01_noteq_number_refuted : exists c asg, tparse lvl_std asg (conv K_ne false c) <> Some (den asg c).
Proof. exact noteq_number_refuted. Qed.
Print Assumptions C01_noteq_number_refuted.
Theorem C01_noteq_double_refuted : exists c asg, tparse lvl_std asg (conv K_ne false c) <> Some (den asg c).
Proof. exact noteq_double_refuted. Qed.
Print Assumptions C01_noteq_double_refuted.
Theorem C01_noteq_notexists_refuted : exists c asg, tparse lvl_std asg (conv K_ne false c) <> Some (den asg c).
Proof. exact noteq_notexists_refuted. Qed.
Print Assumptions C01_noteq_notexists_refuted.
Theorem C01_notexists_loose_not_refuted : exists c asg, tparse lvl_odd asg (conv K_odd false c) <> Some (den asg c).
Proof. exact notexists_loose_not_refuted. Qed.
Print Assumptions C01_notexists_loose_not_refuted.

(* string operator selection (startswith / endswith / contains / wildcard-match / equals shortcuts):
   whichever template is chosen, operator + sliced value denote the source pattern - as item lists
   (except the single '*' rendered as contains "", which is '**'), hence for every subject string *)
Theorem C01_string_operator_pattern : forall K v o x, str_op K v = (o, Ok x) ->
  pattern o (items x) = items v \/ (o = OpContains /\ items v = [Multi] /\ items x = []).
Proof. exact str_op_pattern. Qed.
Print Assumptions C01_string_operator_pattern.
Theorem C01_string_operator_sem : forall K v o x, str_op K v = (o, Ok x) ->
  forall s, wild_match (pattern o (items x)) s = wild_match (items v) s.
Proof. exact str_op_sem. Qed.
Print Assumptions C01_string_operator_sem.

(* ---- leaves: rendering of one detection-item leaf by the verification backend, read back ---- *)
From PS Require Import Base.Chars Model.FieldName Model.Leaf Spec.Atom Proofs.LeafP.
(* For every flag set of the verification backend (always-quoting), every field name, every value kind
   and both template contexts: the text rendered for the leaf, read by the target language's own rules
   (delimiters, quoted/escaped field names, operator keywords, quoted string literals, escaped regular
   expressions), yields an atom that names the same field and the same predicate with the requested
   polarity - or, for value kinds without negated template, the text is the positive one and the caller
   has to negate (Model/Backend.v: negatable). *)
Theorem C01_leaf_faithful : forall extra k neg f fo pm v txt,
  wok extra = true -> k_qpat k = None ->
  fo_ok (W_of extra) f fo = true -> val_ok (W_of extra) f v = true ->
  render_leaf (vb k) neg f fo pm v = Ok txt ->
  exists a, atom_decode (W_of extra) txt = Some a /\
    (acceptb neg f v a = true \/ (neg = true /\ render_leaf (vb k) false f fo pm v = Ok txt)).
Proof. intros extra k neg f fo pm v txt Hw Hq. exact (leaf_faithful (W_of extra) (Wspec_W_of extra Hw) k Hq neg f fo pm v txt). Qed.
Print Assumptions C01_leaf_faithful.
(* values without a field (keywords): strings, numbers, regular expressions *)
Theorem C01_leaf_unbound_faithful : forall extra k pm v txt,
  wok extra = true -> k_qpat k = None -> val_ok (W_of extra) [c_us] v = true ->
  (match v with LStr cased _ => cased = false | _ => True end) ->
  render_val (vb k) pm v = Ok txt ->
  exists a, atom_decode (W_of extra) txt = Some a /\ acceptb false [c_us] v a = true.
Proof. intros extra k pm v txt Hw Hq. exact (leaf_unbound_faithful (W_of extra) (Wspec_W_of extra Hw) k Hq pm v txt). Qed.
Print Assumptions C01_leaf_unbound_faithful.
(* an accepted string atom matches exactly the subjects the source pattern matches, with the source's
   case sensitivity and the requested polarity *)
Theorem C01_leaf_string_meaning : forall neg f cased sv a c op l,
  acceptb neg f (LStr cased sv) a = true -> a_pred a = AStr c op l ->
  a_field a = f /\ c = cased /\ a_neg a = neg /\
  forall subj, wild_match (apattern op l) subj = wild_match (items sv) subj.
Proof. exact accepted_string_meaning. Qed.
Print Assumptions C01_leaf_string_meaning.
(* FULL STATEMENT (false of the faithful model): C01_leaf_faithful without the premise val_ok for CIDR
   values, and C01_leaf_unbound_faithful for case-sensitive keywords. *)
Theorem C01_leaf_cidr_raw_field_refuted : exists f fo v txt,
  render_leaf (vb k_all) false f fo (fun _ => false) v = Ok txt /\
  exists a, atom_decode (W_of []) txt = Some a /\ acceptb false f v a = false.
Proof. exact cidr_raw_field_refuted. Qed.
Print Assumptions C01_leaf_cidr_raw_field_refuted.
Theorem C01_leaf_unbound_cased_refuted : exists sv txt,
  render_val (vb k_all) false (LStr true sv) = Ok txt /\
  exists a, atom_decode (W_of []) txt = Some a /\ acceptb false [c_us] (LStr true sv) a = false.
Proof. exact unbound_cased_refuted. Qed.
Print Assumptions C01_leaf_unbound_cased_refuted.

(* ---- whole queries: splitting the text into operators, parentheses and atom texts ---- *)
From PS Require Import Spec.Lex Proofs.LexP.
(* Lexing the rendered token sequence by the target language's rules gives the token sequence back, for
   atom texts of the checkable shape (delimited up to the first unescaped closing delimiter, or a
   quoted field name plus word, or a word that is not an operator) ... *)
Theorem C01_lex_show : forall atxt ftxt vtxt ts,
  (forall t, In t ts -> is_atom t = true -> shapeb (stxt atxt ftxt vtxt t) = true) -> sep_ok ts = true ->
  lex (show vb_syntax atxt ftxt vtxt ts) = Some (map (ltok_of atxt ftxt vtxt) ts).
Proof. exact lex_show. Qed.
Print Assumptions C01_lex_show.
(* ... and every token sequence the conversion produces separates its atoms, for every configuration
   and every condition tree *)
Theorem C01_conv_separates : forall K c un, sep_ok (conv K un c) = true.
Proof. exact conv_sep_ok. Qed.
Print Assumptions C01_conv_separates.
(* every leaf rendered by the verification backend is one lexical unit ... *)
From PS Require Import Proofs.LeafLexP.
Theorem C01_leaf_lexical : forall extra k neg f fo pm v txt,
  wok extra = true -> k_qpat k = None ->
  fo_ok (W_of extra) f fo = true -> val_ok (W_of extra) f v = true -> lex_ok f v = true ->
  render_leaf (vb k) neg f fo pm v = Ok txt -> shapeb txt = true.
Proof. intros extra k neg f fo pm v txt Hw Hq. exact (leaf_shape (W_of extra) (Wspec_W_of extra Hw) k Hq neg f fo pm v txt). Qed.
Print Assumptions C01_leaf_lexical.
(* ... so a query assembled by the conversion from such leaves is split back into exactly its tokens *)
Theorem C01_query_lexes : forall K tree un atxt ftxt vtxt,
  (forall t, In t (conv K un tree) -> is_atom t = true -> shapeb (stxt atxt ftxt vtxt t) = true) ->
  lex (show vb_syntax atxt ftxt vtxt (conv K un tree)) = Some (map (ltok_of atxt ftxt vtxt) (conv K un tree)).
Proof. exact query_lexes. Qed.
Print Assumptions C01_query_lexes.
(* field in (v1, ..., vn) / field contains-all (...): the rendered list, read by the target language's list
   reader, gives the keys of exactly the values in order, and the text is one lexical unit *)
From PS Require Import Spec.Query Proofs.InListP.
Theorem C01_inlist_faithful : forall extra k disj f fo vals txt,
  wok extra = true -> k_qpat k = None -> fo_ok (W_of extra) f fo = true ->
  vals <> [] -> forallb in_val_okb vals = true ->
  render_in (vb k) disj f fo vals = Ok txt ->
  shapeb txt = true /\
  exists es, all_some (map (fun v => key_of_val f (fst v)) vals) = Some es /\ in_decode (W_of extra) txt = Some (disj, es).
Proof. intros extra k disj f fo vals txt Hw Hq. exact (inlist_faithful (W_of extra) (Wspec_W_of extra Hw) k Hq disj f fo vals txt). Qed.
Print Assumptions C01_inlist_faithful.

(* ---- end to end: render the tree, read the text back, parse ---- *)
From PS Require Import Proofs.QueryP.
(* reading a rendered token sequence (lexing, decoding every atom, identifying it with its reference
   predicate) gives the token sequence back, up to the field number of in-lists, which the parser ignores *)
Theorem C01_read_show : forall W keys atxt ftxt vtxt ts,
  (forall t, In t ts -> is_atom t = true -> shapeb (stxt atxt ftxt vtxt t) = true) -> sep_ok ts = true ->
  Forall (atom_reads W keys atxt ftxt vtxt) ts ->
  read_query W keys (show vb_syntax atxt ftxt vtxt ts) = Some (map norm_tok ts).
Proof. exact read_show. Qed.
Print Assumptions C01_read_show.
(* For every configuration and every condition tree in the domain of C01_structure whose atoms are rendered
   as lexical units that decode to their reference predicates (atom_reads; for the leaves the verification
   backend renders C01_leaf_lexical and C01_inlist_faithful give the lexical unit, C01_leaf_faithful and
   C01_inlist_faithful the decoding; that the decoded key stands in keys at the atom's number, and that the
   text of an in-list does not decode as a single atom, are hypotheses no theorem discharges): the query TEXT,
   read by the target language's reader and parsed by its precedence rules, denotes exactly the boolean
   function of the tree, for every truth assignment. *)
Theorem C01_query_meaning : forall W keys atxt ftxt vtxt K asg c,
  cfg_ok K = true -> wfb K c = true ->
  (forall t, In t (conv K false c) -> is_atom t = true -> shapeb (stxt atxt ftxt vtxt t) = true) ->
  Forall (atom_reads W keys atxt ftxt vtxt) (conv K false c) ->
  exists ts, read_query W keys (show vb_syntax atxt ftxt vtxt (conv K false c)) = Some ts /\
             exists f, pe (lvl K) asg f 3 ts = Some (den asg c, []).
Proof. exact query_meaning. Qed.
Print Assumptions C01_query_meaning.

(* ---- the fixed fuel of the entry point tparse (the function the judge evaluates) always suffices ---- *)
From PS Require Import Proofs.FuelP.
Theorem C01_tparse_complete : forall K asg f ts v,
  pe (lvl K) asg f 3 ts = Some (v, []) -> tparse (lvl K) asg ts = Some v.
Proof. exact tparse_complete. Qed.
Print Assumptions C01_tparse_complete.
Theorem C01_structure_tparse : forall K asg c, cfg_ok K = true -> wfb K c = true ->
  tparse (lvl K) asg (conv K false c) = Some (den asg c).
Proof. exact structure_tparse. Qed.
Print Assumptions C01_structure_tparse.
Theorem C01_query_meaning_tparse : forall W keys atxt ftxt vtxt K asg c,
  cfg_ok K = true -> wfb K c = true ->
  (forall t, In t (conv K false c) -> is_atom t = true -> shapeb (stxt atxt ftxt vtxt t) = true) ->
  Forall (atom_reads W keys atxt ftxt vtxt) (conv K false c) ->
  exists ts, read_query W keys (show vb_syntax atxt ftxt vtxt (conv K false c)) = Some ts /\
             tparse (lvl K) asg ts = Some (den asg c).
Proof. exact query_meaning_tparse. Qed.
Print Assumptions C01_query_meaning_tparse.

(* ---- the reference meaning (Spec/Ref.v) and its numbering ---- *)
From Coq Require Import NArith.
From PS Require Import Spec.Ref Proofs.RefP.
(* The run compares the query with the reference over the numbers of the distinct reference predicates:
   the numbered combination under an assignment of the numbers has the value of the combination of
   predicates under the valuation that reads each predicate's number ... *)
Theorem C01_ref_numbering : forall ks asg c, den asg (number ks c) = rden (fun k => asg (idx ks k)) c.
Proof. exact number_den. Qed.
Print Assumptions C01_ref_numbering.
(* ... and every valuation of the predicates (one that does not distinguish predicates with equal keys) is
   the reading of an assignment of the numbers given by keys_of: the comparison under all assignments is a
   comparison under all valuations of the reference predicates. *)
Theorem C01_ref_valuations : forall c val d, respects val ->
  rden val c = den (fun i => val (nth i (keys_of c []) d)) (number (keys_of c []) c).
Proof. exact ref_valuations. Qed.
Print Assumptions C01_ref_valuations.
(* The truth table the run enumerates (rows m < 2^n, bit i of m for predicate number i) is complete: every
   valuation of the reference predicates is one of its rows. *)
Theorem C01_ref_table_complete : forall c val, respects val ->
  let ks := keys_of c [] in
  exists m, In m (seq 0 (Nat.pow 2 (length ks))) /\
    rden val c = den (fun a => N.testbit (N.of_nat m) (N.of_nat a)) (number ks c).
Proof. exact ref_table_complete. Qed.
Print Assumptions C01_ref_table_complete.
