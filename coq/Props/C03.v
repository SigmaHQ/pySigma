(* C03 - Value modifiers produce exactly the values the specification defines.
   Only statements, each closed by `exact`, with Print Assumptions.

   Model:  Model/Modifiers.v  (from_mapping = modifier table + apply loop + every modify()),
   Spec:   Spec/ModSpec.v     (sp_from_mapping: the same chain on the item view of strings),
           Spec/Items.v       (wild_match: which strings a pattern denotes).
   All theorems hold for every oracle O (Python's \w, re.compile success, ip_network success). *)
From Coq Require Import NArith ZArith List Bool.
From PS Require Import Base.Chars Base.Outcome Model.SString Model.Modifiers Spec.Items Spec.ModSpec
                       Proofs.ModSpecP Proofs.ModifiersP.
Import ListNotations.

(* ---- admissibility: SigmaErr or Ok, never a Python crash (full statement; holds after the
   `fix:` commits for the empty regular expression and for 're' on non-string values) ---- *)
Theorem C03_no_crash : forall O key val c, from_mapping O key val <> Crash c.
Proof. exact from_mapping_nocrash. Qed.
Print Assumptions C03_no_crash.

(* ---- the chain: values, value linking and negation stored on the detection item equal those of
   the specification, and a chain is rejected exactly when the specification does not define it.
   FULL STATEMENT (false of the faithful model, see the two refutations):
       forall O key val, refines O key val
   proved on the domain in_domain: modifiers other than the five encoding modifiers (C04), no
   'expand' before a 'windash', integers that survive float(), no empty string under a 're' that is
   not the first modifier ---- *)
Theorem C03_refines_spec_partial :
  forall O key val, in_domain key val = true ->
    match from_mapping O key val with
    | Ok st => sp_from_mapping O key val = Some (map view (values st), link_and st, negated st)
    | SigmaErr _ => sp_from_mapping O key val = None
    | Crash _ => False
    end.
Proof. exact from_mapping_refines. Qed.
Print Assumptions C03_refines_spec_partial.

Theorem C03_admissible_iff_partial :
  forall O key val, in_domain key val = true ->
    ((exists c, from_mapping O key val = SigmaErr c) <-> sp_from_mapping O key val = None).
Proof. exact rejected_iff. Qed.
Print Assumptions C03_admissible_iff_partial.

(* 'f|expand|windash: %_windash%' yields the five dash characters *)
Theorem C03_windash_placeholder_refuted : ~ refines O0 key_expand_windash val_windash_ph.
Proof. exact refines_refuted_windash. Qed.
Print Assumptions C03_windash_placeholder_refuted.

(* 'f: 9007199254740993' is stored as the float 9007199254740992.0 *)
Theorem C03_number_refuted :
  (exists z, sigma_number (YInt z) <> Ok (NInt z)) /\
  ~ refines O0 (Some [102%N]) (YOne (YInt 9007199254740993)).
Proof. exact (conj number_refuted refines_refuted_number). Qed.
Print Assumptions C03_number_refuted.

(* ---- 'all' / 'neq': only the flags change, and the flags never influence the values ---- *)
Theorem C03_all_neq_frame :
  forall O field,
    (forall applied st, step O field applied MAll st =
        Ok {| values := values st; link_and := true; negated := negated st |}) /\
    (forall applied st, step O field applied MNeq st =
        Ok {| values := values st; link_and := link_and st; negated := true |}) /\
    (forall ms applied st st', run_chain O field applied ms st = Ok st' ->
        link_and st' = (link_and st || existsb is_all ms) /\
        negated st' = (negated st || existsb is_neq ms)) /\
    (forall ms applied st1 st2, values st1 = values st2 ->
        same_values (run_chain O field applied ms st1) (run_chain O field applied ms st2)).
Proof.
  exact (fun O field => conj (step_all O field) (conj (step_neq O field)
          (conj (run_chain_flags O field) (run_chain_values_indep O field)))).
Qed.
Print Assumptions C03_all_neq_frame.

(* ---- contains / startswith / endswith on strings: what the stored pattern matches.
   [no_empty v] holds for every value the parser or another modifier produces. ---- *)
Theorem C03_contains_sem :
  forall v s, no_empty v = true ->
    (wild_match (items (add_multi_back (add_multi_front v))) s = true <->
     exists a m b, s = a ++ m ++ b /\ wild_match (items v) m = true).
Proof. exact contains_sem_model. Qed.
Print Assumptions C03_contains_sem.

Theorem C03_startswith_sem :
  forall v s, no_empty v = true ->
    (wild_match (items (add_multi_back v)) s = true <->
     exists m b, s = m ++ b /\ wild_match (items v) m = true).
Proof. exact startswith_sem_model. Qed.
Print Assumptions C03_startswith_sem.

Theorem C03_endswith_sem :
  forall v s, no_empty v = true ->
    (wild_match (items (add_multi_front v)) s = true <->
     exists a m, s = a ++ m /\ wild_match (items v) m = true).
Proof. exact endswith_sem_model. Qed.
Print Assumptions C03_endswith_sem.

(* only missing wildcards are added: applying the modifier twice changes nothing more *)
Theorem C03_wildcard_idem :
  forall l, sp_contains (sp_contains l) = sp_contains l /\ sp_back (sp_back l) = sp_back l /\
            sp_front (sp_front l) = sp_front l.
Proof. exact (fun l => conj (sp_contains_idem l) (conj (sp_back_idem l) (sp_front_idem l))). Qed.
Print Assumptions C03_wildcard_idem.

(* ---- modifiers that change the type keep the content ---- *)
Theorem C03_type_change_content :
  forall O field applied c v n b fi fm fs o p,
    modify O field applied MCased (AStr c v) = Ok (VAtom (AStr true v)) /\
    modify O field applied (MCmp o) (ANum n) = Ok (VAtom (ACmp o n)) /\
    modify O field applied (MFlag FI) (ARe v fi fm fs) = Ok (VAtom (ARe v true fm fs)) /\
    modify O field applied (MFlag FM) (ARe v fi fm fs) = Ok (VAtom (ARe v fi true fs)) /\
    modify O field applied (MFlag FS) (ARe v fi fm fs) = Ok (VAtom (ARe v fi fm true)) /\
    modify O field applied (MTs p) (ANum n) = Ok (VAtom (ANum (NTs p (num_trunc n)))) /\
    (forall z, num_trunc (NPlain (NInt z)) = z) /\
    (forall r, modify O field applied MExists (ABool b) = Ok r -> r = VAtom (AExists b)) /\
    (forall r, modify O field applied MCidr (AStr c v) = Ok r -> r = VAtom (ACidr (to_plain false v))) /\
    (forall r, modify O field applied MFieldref (AStr c v) = Ok r ->
               r = VAtom (AFieldRef (to_plain false v) false false) /\ contains_special v = false) /\
    (forall s r, modify O field applied MRe (AStr c (from_str s)) = Ok r ->
               exists w, r = VAtom (ARe w false false false) /\ items w = iparse_noesc s).
Proof.
  exact (fun O field applied c v n b fi fm fs o p =>
    conj eq_refl (conj eq_refl (conj eq_refl (conj eq_refl (conj eq_refl (conj eq_refl (conj (fun z => eq_refl)
    (conj (modify_exists_inv O field applied b) (conj (modify_cidr_inv O field applied c v)
    (conj (modify_fieldref_inv O field applied c v) (fun s => modify_re_inv O field applied c s))))))))))).
Qed.
Print Assumptions C03_type_change_content.

(* ---- windash: the stored values are exactly the dash variants.
   FULL STATEMENT (false: Proofs.ModifiersP.windash_placeholder_refuted; C03_windash_placeholder_refuted
   shows the same placeholder breaking `refines` for a whole item): for every well-formed v.
   proved for values without a placeholder named _windash; [w] is any word-character class ---- *)
Theorem C03_windash_exact_partial :
  forall w v, wfp v = true -> no_wd_ph v = true ->
    map items (windash w v) = variants w false (items v).
Proof. exact windash_items. Qed.
Print Assumptions C03_windash_exact_partial.

(* ... and the variant set is what the specification says: x is listed iff it has the length of l,
   carries one of the five dash characters at every parameter position (a literal '-' or '/' not
   preceded by a literal word character and followed by one) and the item of l everywhere else;
   nothing is listed twice; there are 5^k variants *)
Theorem C03_windash_variants :
  forall w, w c_dash = false /\ w c_slash = false ->
    forall l,
      (forall x, In x (variants w false l) <-> is_variant w false l x) /\
      NoDup (variants w false l) /\
      length (variants w false l) = Nat.pow 5 (count_params w false l).
Proof.
  exact (fun w Hw l => conj (variants_spec w Hw l false)
                         (conj (variants_NoDup w l false) (variants_length w Hw l false))).
Qed.
Print Assumptions C03_windash_variants.

(* ---- expand: the lookbehind scanner plus the replace("\\%", "%") on the segments reads a
   well-formed value exactly as the item-level specification does ---- *)
Theorem C03_expand_exact :
  forall v, wfp v = true -> items (insert_placeholders v) = sp_expand (items v).
Proof. exact insert_placeholders_items. Qed.
Print Assumptions C03_expand_exact.

(* ... and the item-level reading is sound: every placeholder of the result was a placeholder of the
   input or stands for a %name% of the input (name not empty, free of '%', between two literal '%');
   a value without a literal '%' is left alone ---- *)
Theorem C03_expand_sound :
  (forall l n, In (Ph n) (sp_expand l) ->
     In (Ph n) l \/
     (n <> [] /\ ~ In c_pct n /\ exists pre post, l = pre ++ Lit c_pct :: map Lit n ++ Lit c_pct :: post)) /\
  (forall l, existsb (fun i => match i with Lit c => N.eqb c c_pct | _ => false end) l = false -> sp_expand l = l).
Proof. exact (conj (fun l => sp_expand_sound _ l) (fun l => sp_expand_no_pct _ l)). Qed.
Print Assumptions C03_expand_sound.

(* ---- the premises are met: parsed values are well-formed, well-formedness is preserved ---- *)
Theorem C03_wellformed_values :
  (forall s, wfp (parse true s) = true /\ no_ph (parse true s) = true /\ wfp (parse false s) = true) /\
  (forall v, wfp v = true -> wfp (add_multi_front v) = true /\ wfp (add_multi_back v) = true /\
                             wfp (insert_placeholders v) = true) /\
  (forall w v, wfp v = true -> no_ph v = true ->
               Forall (fun x => wfp x = true /\ no_ph x = true) (windash w v)).
Proof.
  exact (conj (fun s => conj (parse_wfp true s) (conj (parse_no_ph true s) (parse_wfp false s)))
        (conj (fun v H => conj (add_multi_front_wfp v H) (conj (add_multi_back_wfp v H) (insert_placeholders_wfp v H)))
              windash_good)).
Qed.
Print Assumptions C03_wellformed_values.

Example C03_premises_inhabited :
  in_domain (Some [102;124;119;105;110;100;97;115;104;124;99;111;110;116;97;105;110;115;124;97;108;108]%N)
            (YMany [YStr [45;97;32;47;98]%N; YStr [42;120]%N]) = true /\
  wfp [PStr [45;97]%N; PMulti] = true /\ no_wd_ph [PStr [45;97]%N; PPh [120]%N] = true.
Proof. exact (conj in_domain_example (conj eq_refl eq_refl)). Qed.
