(* C04 - Encoding modifiers find the payload in encoded data at every alignment.
   Model: Model.Enc (sigma/modifiers.py SigmaBase64Modifier, SigmaBase64OffsetModifier, SigmaWideModifier,
   SigmaUTF16BEModifier, SigmaUTF16Modifier, sigma/types.py SigmaString.__bytes__, after the repairs D7, D8, D29).
   Specification: Spec.B64 (RFC 4648 over bit strings, "occurs in"), Spec.Utf (UTF-8, UTF-16). *)
From Coq Require Import NArith Arith List Bool.
From PS Require Import Base.Chars Base.Outcome Model.SString Spec.Items Spec.Utf Spec.B64 Model.Enc
     Proofs.B64P Proofs.UtfP Proofs.EncP Proofs.ChainP.
Import ListNotations.
Open Scope N_scope.

(* b64encode (three octets -> four characters, arithmetic) is RFC 4648 for every octet string *)
Theorem C04_b64 : forall p, bytes_ok p = true -> b64 p = rfc4648 p.
Proof. exact b64_rfc4648. Qed.
Print Assumptions C04_b64.

(* CPython's strict UTF-8 decoder, as used by the wide modifiers, accepts exactly the UTF-8 forms of
   strings of Unicode scalar values and returns that string *)
Theorem C04_utf8_decoder_exact :
  (forall bs s, utf8_dec bs = Some s -> utf8 s = bs /\ forallb scalar s = true) /\
  (forall s, forallb scalar s = true -> utf8_dec (utf8 s) = Some s).
Proof. exact (conj utf8_dec_sound utf8_dec_complete). Qed.
Print Assumptions C04_utf8_decoder_exact.

(* base64: the value is the standard Base64 text of the payload's UTF-8 bytes *)
Theorem C04_base64_value : forall v x, contains_placeholder v = false -> mod_str MBase64 v = Ok x ->
  exists w, x = VStr w /\ all_lit (items v) = true /\ items w = map Lit (rfc4648 (utf8 (lits (items v)))).
Proof. exact base64_value. Qed.
Print Assumptions C04_base64_value.

(* ... and it rejects only wildcards and strings that cannot be encoded *)
Theorem C04_base64_reject : forall m v e, m = MBase64 \/ m = MBase64Offset -> mod_str m v = SigmaErr e ->
  contains_special v = true \/ forallb scalar (to_plain true v) = false.
Proof. exact base64_reject. Qed.
Print Assumptions C04_base64_reject.

(* wide / utf16be: the bytes of the value are the UTF-16LE / UTF-16BE encoding of the payload,
   wildcards and placeholders stay where they are *)
Theorem C04_wide_bytes : forall v x, mod_str MWide v = Ok x ->
  exists w, x = VStr w /\ vstream w = stream utf16le_char (items v).
Proof. exact wide_bytes. Qed.
Print Assumptions C04_wide_bytes.

Theorem C04_utf16be_bytes : forall v x, mod_str MUtf16be v = Ok x ->
  exists w, x = VStr w /\ vstream w = stream utf16be_char (items v).
Proof. exact utf16be_bytes. Qed.
Print Assumptions C04_utf16be_bytes.

(* they reject only when a string part cannot be encoded, or when no string value at all has the
   required bytes (so that rejecting is the only alternative) *)
Theorem C04_wide_reject : forall (f : char -> list N) v e, recode (flat_map f) v = SigmaErr e ->
  exists s, In (PStr s) v /\
    (forallb scalar s = false \/ forall s', forallb scalar s' = true -> utf8 s' <> flat_map f s).
Proof. exact recode_reject. Qed.
Print Assumptions C04_wide_reject.

(* FULL STATEMENT for utf16 (false of the faithful model, finding D9):
     forall v w, mod_str MUtf16 v = Ok (VStr w) -> vstream w = map SB bom_le ++ stream utf16le_char (items v)
   proved part: the content is UTF-16LE, but the mark in front of it is EF BB BF *)
Theorem C04_utf16_bytes_partial : forall v x, mod_str MUtf16 v = Ok x ->
  exists w, x = VStr w /\ vstream w = map SB [239; 187; 191] ++ stream utf16le_char (items v).
Proof. exact utf16_bytes_partial. Qed.
Print Assumptions C04_utf16_bytes_partial.

Theorem C04_utf16_bom_refuted : exists v w, mod_str MUtf16 v = Ok (VStr w) /\
  vstream w <> map SB bom_le ++ stream utf16le_char (items v).
Proof. exact utf16_bom_refuted. Qed.
Print Assumptions C04_utf16_bom_refuted.

(* base64offset, on octet strings: the i-th slice is exactly the text of the complete 6-bit groups of
   the payload's bits after its first 0 / 4 / 2 bits ... *)
Theorem C04_offset_slices : forall i p, (i < 3)%nat -> bytes_ok p = true ->
  variant i p = payload_text i p /\ length (variant i p) = ((8 * length p - lead_bits i) / 6)%nat.
Proof. exact (fun i p Hi Hp => conj (variant_payload_text i p Hi Hp) (variant_length i p Hi Hp)). Qed.
Print Assumptions C04_offset_slices.

(* ... every byte string that contains the payload has a Base64 text that contains one of the three values ... *)
Theorem C04_offset_hit : forall pre p suf, bytes_ok (pre ++ p ++ suf) = true ->
  exists i, (i < 3)%nat /\ infix (variant i p) (rfc4648 (pre ++ p ++ suf)).
Proof. exact (fun pre p suf H => offset_hit_rfc pre p suf (bytes_ok_mid pre p suf H)). Qed.
Print Assumptions C04_offset_hit.

(* ... every value is implied by the payload alone: whatever surrounds the payload at alignment i,
   value i stands at the corresponding position of the text ... *)
Theorem C04_offset_payload_only : forall i pre p suf,
  (length pre mod 3 = i)%nat -> p <> [] -> bytes_ok (pre ++ p ++ suf) = true ->
  occurs_at (4 * (length pre / 3) + start_off i)%nat (variant i p) (rfc4648 (pre ++ p ++ suf)).
Proof. exact (fun i pre p suf Hi Hp H => offset_payload_only_rfc i pre p suf Hi Hp (bytes_ok_mid pre p suf H)). Qed.
Print Assumptions C04_offset_payload_only.

(* ... and that text contains no padding (so, by C04_offset_slices, neither does a value) *)
Theorem C04_offset_no_padding : forall i p, ~ In c_pad (payload_text i p).
Proof. exact payload_text_no_padding. Qed.
Print Assumptions C04_offset_no_padding.

(* the base64offset modifier returns these three texts for the UTF-8 bytes of the payload *)
Theorem C04_offset_value : forall v x, contains_placeholder v = false -> mod_str MBase64Offset v = Ok x ->
  exists w0 w1 w2, x = VExp [VStr w0; VStr w1; VStr w2] /\ all_lit (items v) = true
    /\ bytes_ok (utf8 (lits (items v))) = true
    /\ items w0 = map Lit (variant 0 (utf8 (lits (items v))))
    /\ items w1 = map Lit (variant 1 (utf8 (lits (items v))))
    /\ items w2 = map Lit (variant 2 (utf8 (lits (items v)))).
Proof. exact base64offset_value. Qed.
Print Assumptions C04_offset_value.

(* end to end, from the source text of the value: chains  base64, wide|base64, utf16be|base64 *)
Theorem C04_chain_base64 : forall e f s xs, enc_fun e = Some f ->
  from_mapping (e ++ [MBase64]) [PVStr s] = Ok xs ->
  exists w, xs = [VStr w] /\ all_lit (iparse s) = true
            /\ items w = map Lit (rfc4648 (flat_map f (lits (iparse s)))).
Proof. exact chain_base64. Qed.
Print Assumptions C04_chain_base64.

(* chains  base64offset, wide|base64offset, utf16be|base64offset: for every byte string that contains
   the encoded payload, the RFC 4648 text of that byte string contains one of the produced values *)
Theorem C04_chain_base64offset : forall e f s xs, enc_fun e = Some f ->
  from_mapping (e ++ [MBase64Offset]) [PVStr s] = Ok xs ->
  let B := flat_map f (lits (iparse s)) in
  exists w0 w1 w2, xs = [VExp [VStr w0; VStr w1; VStr w2]] /\ all_lit (iparse s) = true
    /\ items w0 = map Lit (variant 0 B) /\ items w1 = map Lit (variant 1 B) /\ items w2 = map Lit (variant 2 B)
    /\ (forall pre suf, bytes_ok pre = true -> bytes_ok suf = true ->
          exists w, In w [w0; w1; w2] /\ infix (lits (items w)) (rfc4648 (pre ++ B ++ suf))).
Proof. exact chain_base64offset. Qed.
Print Assumptions C04_chain_base64offset.

(* a value or a Sigma error: no chain of these modifiers ends in any other exception *)
Theorem C04_no_crash : forall ms ps c, from_mapping ms ps <> Crash c.
Proof. exact from_mapping_no_crash. Qed.
Print Assumptions C04_no_crash.

(* the boolean search of the correspondence judge decides "occurs in" *)
Theorem C04_infixb_spec : forall v t, infixb v t = true <-> infix v t.
Proof. exact infixb_spec. Qed.
Print Assumptions C04_infixb_spec.

(* non-vacuity: the premises are inhabited by non-trivial values *)
Example C04_premises_inhabited :
  bytes_ok ([255; 1] ++ utf8 [228; 98] ++ [32]) = true /\
  enc_fun [MWide] = Some utf16le_char /\
  (exists xs, from_mapping ([MWide] ++ [MBase64Offset]) [PVStr [97; 92; 42; 98]] = Ok xs) /\
  (exists x, mod_str MWide [PStr [65664; 128]] = Ok x) /\
  (exists e, mod_str MWide [PStr [233]] = SigmaErr e) /\
  variant 1 (utf8 [228; 98]) = [79; 107; 89].
Proof.
  split; [reflexivity|]. split; [reflexivity|].
  split; [eexists; vm_compute; reflexivity|].
  split; [eexists; vm_compute; reflexivity|].
  split; [eexists; vm_compute; reflexivity|]. vm_compute. reflexivity.
Qed.
