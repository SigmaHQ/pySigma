(* C05 - String values keep their exact characters and wildcards in every rendering.
   Only statements, each closed by `exact` (the inhabitedness of the premises by evaluation), with
   Print Assumptions. *)
From Coq Require Import NArith List Bool.
From Coq Require Import ZArith.
From PS Require Import Base.Chars Base.Outcome Model.SString Model.Slice Spec.Items Proofs.SStringP Proofs.ConvertP Proofs.SliceP Proofs.QuoteP Model.FieldName Proofs.FieldNameP Model.RxEscape Proofs.RxEscapeP.
Import ListNotations.

(* the parser of SigmaString.__init__ reads a source string exactly as the specification's
   item reader does, and produces the canonical grouping of those items *)
Theorem C05_parse_spec : forall s, parse true s = canon (iparse s) /\ items (parse true s) = iparse s.
Proof. exact parse_spec. Qed.
Print Assumptions C05_parse_spec.

(* FULL STATEMENT (false of the faithful model, see the refutations below):
     forall l, parse true (to_plain false (canon l)) = canon l
   proved part: values in which no literal backslash is directly followed by a wildcard, a literal
   wildcard character or another backslash *)
Theorem C05_plain_roundtrip_partial :
  forall l, no_bs_adjacent l = true -> parse true (to_plain false (canon l)) = canon l.
Proof. exact plain_roundtrip. Qed.
Print Assumptions C05_plain_roundtrip_partial.

Theorem C05_plain_roundtrip_refuted :
  exists l, parse true (to_plain false (canon l)) <> canon l.
Proof. exact plain_roundtrip_refuted. Qed.
Print Assumptions C05_plain_roundtrip_refuted.

(* the target literal, read back by the target language's own escaping rules, yields exactly the
   literal characters and wildcard positions of the value (minus the filtered characters) *)
Theorem C05_convert_decode :
  forall K v q, wf_escaping K = true -> convert K v = Ok q ->
                tread K q = Some (filter_items K (items v)).
Proof. exact convert_decode. Qed.
Print Assumptions C05_convert_decode.

(* no break-out: the quoted literal emitted by convert_value_str, read by the target's own rules
   (opening quote, escape + any character, wildcard tokens, first unescaped quote closes), ends exactly
   at its last character and yields the value's items - no source character terminates the literal *)
Theorem C05_quoted_decode :
  forall K q v s, wf_quoting K q = true -> convert_quoted K q v = Ok s ->
                  qread (with_quote K q) q s = Some (filter_items K (items v)).
Proof. exact quoted_decode. Qed.
Print Assumptions C05_quoted_decode.

(* without the premise the statement is false, already for the shipped test backend *)
Theorem C05_unescaped_escape_refuted :
  exists v q, convert test_backend_cfg v = Ok q /\ tread test_backend_cfg q <> Some (items v).
Proof. exact convert_unescaped_escape_refuted. Qed.
Print Assumptions C05_unescaped_escape_refuted.

(* the regular-expression form denotes the same pattern, for every set of extra escaped characters *)
Theorem C05_regex_decode :
  forall custom v q, to_regex custom v = Ok q -> rdecode q = Some (items v).
Proof. exact regex_decode. Qed.
Print Assumptions C05_regex_decode.

(* the slices the backend takes to strip wildcards for startswith / endswith / contains keep
   exactly the remaining items: v[:k], v[:-k] (startswith uses v[:-1]), v[k:] (endswith uses v[1:])
   and v[1:-1] of a value starting with a wildcard (contains) *)
Theorem C05_slice_prefix : forall v k r, (0 <= k <= Z.of_nat (slen v))%Z ->
  getitem v None (Some k) = Ok r -> items r = firstn (Z.to_nat k) (items v).
Proof. exact slice_prefix. Qed.
Print Assumptions C05_slice_prefix.
Theorem C05_slice_prefix_neg : forall v k r, (0 < k <= Z.of_nat (slen v))%Z ->
  getitem v None (Some (- k)%Z) = Ok r -> items r = firstn (length (items v) - Z.to_nat k) (items v).
Proof. exact slice_prefix_neg. Qed.
Print Assumptions C05_slice_prefix_neg.
Theorem C05_slice_suffix : forall v k r, (0 <= k)%Z ->
  getitem v (Some k) None = Ok r -> items r = skipn (Z.to_nat k) (items v).
Proof. exact slice_suffix. Qed.
Print Assumptions C05_slice_suffix.
Theorem C05_slice_strip : forall p v r, (match p with PStr _ => False | _ => True end) ->
  getitem (p :: v) (Some 1%Z) (Some (-1)%Z) = Ok r -> items r = removelast (tl (items (p :: v))).
Proof. exact slice_strip. Qed.
Print Assumptions C05_slice_strip.
(* a slice with both bounds inside one plain part re-parses that substring: not faithful *)
Theorem C05_slice_inner_refuted : exists v r,
  getitem v (Some 1%Z) (Some 2%Z) = Ok r /\ items r <> firstn 1 (skipn 1 (items v)).
Proof. exact slice_inner_refuted. Qed.
Print Assumptions C05_slice_inner_refuted.

(* a rendered field name decodes to the original name: whenever the escape pattern covers the
   escape character itself and a quoted name has its quote characters escaped (or contains none) *)
Theorem C05_field_roundtrip : forall K ec pat, f_escape K = Some [ec] -> forall qd f,
  esc_covered ec pat 0 f ->
  (forall x, f_quote K = Some x -> qd = true -> x <> ec /\ (f_escape_quote K = true \/ ~ In x f)) ->
  fread (Some ec) (f_quote K) (match f_quote K with Some _ => qd | None => false end)
        (escape_and_quote_field K pat qd f) = Some f.
Proof. exact field_roundtrip. Qed.
Print Assumptions C05_field_roundtrip.
Theorem C05_field_quote_unescaped_refuted : exists f,
  fread None (Some 39%N) true (escape_and_quote_field test_backend_fcfg (fun _ => false) true f) <> Some f.
Proof. exact field_quote_unescaped_refuted. Qed.
Print Assumptions C05_field_quote_unescaped_refuted.

(* SigmaRegularExpression.escape with single-character escaped sequences that include the escape
   character itself: the target's reading of the escaped regular expression is the source text *)
Theorem C05_rx_escape_roundtrip : forall e cs s,
  rx_unescape (map (fun x => [x]) cs) [e] true
              (rx_escape (map (fun x => [x]) cs) [e] true false [] s) = s.
Proof. exact rx_escape_roundtrip. Qed.
Print Assumptions C05_rx_escape_roundtrip.

(* non-vacuity: the premises are met by a non-trivial configuration and value *)
Example C05_premises_inhabited :
  wf_escaping {| e_esc := Some c_bs; e_multi := Some [c_star]; e_single := Some [c_qm];
                 e_add := [c_bs; c_dq]; e_filter := [] |} = true /\
  no_bs_adjacent [Lit c_bs; Lit 97%N; Multi; Lit c_star] = true.
Proof. split; reflexivity. Qed.

(* Through the backend: the complete leaf renderer of TextQueryBackend on a string value. *)
From PS Require Import Model.StrOp Model.Leaf Spec.Atom Proofs.LeafStrP.
(* For every flag set of the verification backend (always-quoting), every field name and every string
   value, in both template contexts: the rendered text (operator selection, slicing, escaping, quoting of
   the value; escaping and quoting of the field name), decoded by the target language's own rules, is a
   string atom on the original field name with the source's case sensitivity whose pattern matches
   exactly the subjects the source pattern matches. *)
Theorem C05_backend_string_leaf : forall extra k neg f fo pm cased sv txt,
  wok extra = true -> k_qpat k = None ->
  fo_ok (W_of extra) f fo = true -> val_ok (W_of extra) f (LStr cased sv) = true ->
  render_leaf (vb k) neg f fo pm (LStr cased sv) = Ok txt ->
  exists a c op l, atom_decode (W_of extra) txt = Some a /\ a_pred a = AStr c op l /\
    a_field a = f /\ c = cased /\
    forall subj, wild_match (apattern op l) subj = wild_match (items sv) subj.
Proof. exact backend_string_leaf. Qed.
Print Assumptions C05_backend_string_leaf.
