(* C06 - Serialising a rule and loading it again preserves its meaning.
   Only statements with Print Assumptions.  Most are closed by `exact`; a few by the two or three steps that
   put a lemma of Proofs/SerializeP.v into the stated form, and C06_load_leaves_argument / C06_load_twice_same
   by `reflexivity`: they unfold the model's from_dict_proc and have no lemma behind them.

   The model (Model/Serialize.v) covers the detection part: from_dict of the detections section,
   SigmaDetectionItem.to_plain (original values, key reconstruction through the reverse modifier
   table), SigmaDetection.to_plain (filter of None results, single-result shortcut, type cases,
   duplicate-key merge), SigmaDetections.to_dict.  What the modifier chain makes of the values is an
   arbitrary function `apply_mods` of (field, modifier classes, original values): every theorem
   holds for all such functions, so equality of the reloaded object gives equality of its condition
   trees, hence of the queries of every backend. *)
From Coq Require Import NArith ZArith List Bool.
From PS Require Import Base.Chars Base.Outcome Model.SString Spec.Items Model.Serialize Spec.RoundTrip
                       Proofs.SerializeP.
Import ListNotations.

(* the key written for an item is read back as the same field and modifier classes
   (reverse_modifier_mapping is a right inverse of modifier_mapping, no identifier contains '|') *)
Theorem C06_key_roundtrip :
  forall f ms, field_ok f -> parse_key (key_of f ms) = Ok (f, ms).
Proof. exact parse_key_of. Qed.
Print Assumptions C06_key_roundtrip.

(* every loaded field name satisfies the premise of the previous theorem *)
Theorem C06_loaded_field_ok : forall k f ms, parse_key k = Ok (f, ms) -> field_ok f.
Proof. exact parse_key_field. Qed.
Print Assumptions C06_loaded_field_ok.

(* FULL STATEMENT (false of the faithful model, see the refutations below):
     forall d r d', load d = Ok r -> to_dict r = Ok d' ->
       exists r', load d' = Ok r' /\ to_dict r' = Ok d' /\ cond_trees r' = cond_trees r
   proved part: on the domain dom_dets (Spec/RoundTrip.v: no literal backslash directly before a
   wildcard / literal wildcard character / backslash in non-regex strings (D10); written keys of one
   mapping pairwise different; no unbound null keyword; nested detections not all single plain values)
   the reloaded object is the SAME object, for every behaviour of the modifiers *)
Theorem C06_idempotent_partial :
  forall (T : Type) (apply_mods : option str -> list mcls -> list sval -> outcome T)
         defs c (r : dets T) defs' c',
    load_dets apply_mods defs c = Ok r -> dom_dets r = true -> dets_plain r = Ok (defs', c') ->
    exists r', load_dets apply_mods defs' c' = Ok r' /\ dets_plain r' = Ok (defs', c') /\ r' = r.
Proof.
  intros T ap defs c r defs' c' Hl Hd Hp. exists r.
  split; [exact (dets_reload ap defs c r defs' c' Hl Hd Hp) | split; [exact Hp | reflexivity]].
Qed.
Print Assumptions C06_idempotent_partial.

(* the same for one detection definition, any nesting depth *)
Theorem C06_detection_reload :
  forall (T : Type) (apply_mods : option str -> list mcls -> list sval -> outcome T) d (r : det T) d',
    load_def apply_mods d = Ok r -> dom r = true -> det_plain r = Ok d' -> load_def apply_mods d' = Ok r.
Proof. intros T ap d r d' Hl. exact (plain_reload ap r d' (load_inv ap d r Hl)). Qed.
Print Assumptions C06_detection_reload.

(* outside the domain the reloaded object differs (each witness replayed on the real code) *)
Theorem C06_idempotent_refuted_backslash :
  rt_differs [([115], DMap [([102], MOne (PStrV [92; 92; 42]))])]%N (COne [115]%N).
Proof. exact refuted_backslash. Qed.
Print Assumptions C06_idempotent_refuted_backslash.

Theorem C06_idempotent_refuted_alias_merge :
  exists defs c, rt_differs defs c.
Proof. eexists _, _. exact refuted_alias_merge. Qed.
Print Assumptions C06_idempotent_refuted_alias_merge.

Theorem C06_idempotent_refuted_null_keyword :
  exists defs c, rt_differs defs c.
Proof. eexists _, _. exact refuted_null_keyword. Qed.
Print Assumptions C06_idempotent_refuted_null_keyword.

Theorem C06_idempotent_refuted_nested_singles :
  exists defs c, rt_differs defs c.
Proof. eexists _, _. exact refuted_nested_singles. Qed.
Print Assumptions C06_idempotent_refuted_nested_singles.

(* fail closed: an object in which a transformation disabled the plain conversion of some item
   (original_value = None) is never written: to_plain ends in an error *)
Theorem C06_fail_closed_disabled :
  forall (T : Type) (r : det T), has_disabled r = true -> is_err (det_plain r) = true.
Proof. intros T. exact disabled_fails. Qed.
Print Assumptions C06_fail_closed_disabled.

Example C06_premises_inhabited :
  exists r d', load_dets apply_any sample_defs (CMany [[115]; [116]])%N = Ok r /\ dom_dets r = true /\
               dets_plain r = Ok d'.
Proof. exact premises_inhabited. Qed.

(* the merge path (two items written under the same key, e.g. through modifier aliases or after two
   fields were mapped to one): two single values become one key|all item holding both values ... *)
Theorem C06_merge_two_singles :
  forall k a b, infixb s_neq k = false -> infixb s_all k = false ->
    merge_all [] [(k, MOne a); (k, MOne b)] = Ok [((k ++ s_all)%list, MMany [a; b])].
Proof. exact merge_two_singles. Qed.
Print Assumptions C06_merge_two_singles.

(* ... and negated items are never merged (not a and not b is not not (a and b)): Sigma error *)
Theorem C06_merge_negated_refused :
  forall k v1 v2 md, infixb s_neq k = true -> md_get k md = Some v1 ->
    merge_step md (k, v2) = SigmaErr E_Value.
Proof. exact merge_neq_refused. Qed.
Print Assumptions C06_merge_negated_refused.

(* MEANING PRESERVATION OF THE MERGE PATH.  A written mapping is read as the AND of its entries; an entry
   is the AND (if `all` is among its modifier identifiers) or the OR of the atoms (key without `all`, value);
   h says which atoms hold and is arbitrary.  Whenever the merge loop of SigmaDetection.to_plain succeeds
   on the items' entries (any number of colliding keys, existing key|all scalar or list, any order), the
   mapping it writes holds under h exactly when all items hold: no term is lost, none is added. *)
Theorem C06_merge_preserves_meaning :
  forall h es md, Forall (fun kv => key_wf (fst kv)) es -> merge_all [] es = Ok md ->
    den_map h (map (fun kv => (fst kv, unwrap1 (snd kv))) md) = den_map h es.
Proof. exact merge_written_sound. Qed.
Print Assumptions C06_merge_preserves_meaning.

(* the premise key_wf ("|all" in k agrees with from_mapping's reading of the key) holds for every key
   to_plain writes *)
Theorem C06_written_keys_wf : forall f ms, field_ok f -> key_wf (key_of f ms).
Proof. exact key_of_wf. Qed.
Print Assumptions C06_written_keys_wf.

(* ARGUMENT PURITY.  from_dict modelled as the procedure Python runs (document passed by reference):
   the caller's dict is the same after the call, so the same dict can be loaded again (or dumped as
   YAML, or compared with to_dict of the loaded object) with the same result.  The correspondence ties
   this to the code: the argument after every from_dict call is part of the observed output and must
   equal the model's (i.e. the argument before the call). *)
Theorem C06_load_leaves_argument :
  forall (T : Type) (ap : option str -> list mcls -> list sval -> outcome T) arg,
    snd (from_dict_proc ap arg) = arg.
Proof. reflexivity. Qed.
Print Assumptions C06_load_leaves_argument.

Theorem C06_load_twice_same :
  forall (T : Type) (ap : option str -> list mcls -> list sval -> outcome T) arg,
    fst (from_dict_proc ap (snd (from_dict_proc ap arg))) = fst (from_dict_proc ap arg).
Proof. reflexivity. Qed.
Print Assumptions C06_load_twice_same.
