(* C07 - Malformed documents raise Sigma errors only; collecting mode never raises.
   Only statements, each closed by `exact`, with Print Assumptions.

   The statements are about Model/Loader.v (the loaders as they are in the working tree after the
   `fix:` commits listed in known_findings.json, C07) for EVERY library `L` (uuid.UUID, int(), re.compile,
   ipaddress.ip_network, the pyparsing grammar of extended conditions may answer anything) and every
   document `d` (unbounded YAML values, non-string and duplicate-looking keys included).

   C07_holds strict collect  :=  strict is not Crash /\ collect is not Crash /\
        exists errs, collect = Ok errs /\ (errs = [] -> strict = Ok []) /\ (errs = e :: _ -> strict = SigmaErr e)
   i.e. only Sigma errors escape, collecting mode returns, its error list is empty exactly when strict
   loading succeeds, and its first error is the one strict loading raises.

   FULL STATEMENT  forall kind L d, C07_holds (load kind L false d) (load kind L true d)
   is false of the faithful model (refutations below): it is proved on the stated domains. *)
From Coq Require Import NArith ZArith List Bool.
From PS Require Import Base.Chars Base.Outcome Model.Yaml Model.Loader Model.CollLoader Spec.LoaderSpec Proofs.LoaderP Proofs.CollLoaderP.
Import ListNotations.

(* the executable oracle used on the implementation's output is the specification *)
Theorem C07_spec_executable : forall s c, c07_okb s c = true <-> C07_holds s c.
Proof. exact c07_okb_spec. Qed.
Print Assumptions C07_spec_executable.

(* rules: the whole property, for every document that is a map and whose detection items stay in the
   modelled fragment of the modifier machinery (rule_dom: wide/utf16/utf16be meet ASCII text only) *)
Theorem C07_rule_holds_partial :
  forall L d, rule_dom d = true -> C07_holds (load_rule L false d) (load_rule L true d).
Proof. exact rule_holds. Qed.
Print Assumptions C07_rule_holds_partial.

(* filters: the same *)
Theorem C07_filter_holds_partial :
  forall L d, filter_dom d = true -> C07_holds (load_filter L false d) (load_filter L true d).
Proof. exact filter_holds. Qed.
Print Assumptions C07_filter_holds_partial.

(* a document that is not a map escapes as AttributeError, in both modes (finding nonmap-document) *)
Theorem C07_nonmap_refuted : forall L c, load_rule L c (YList [YStr [97%N]]) = Crash X_Attr.
Proof. exact nonmap_refuted. Qed.
Print Assumptions C07_nonmap_refuted.

(* correlation rules: only Sigma errors escape, in both modes, when the document is a map and every
   entry of `rules` is a string *)
Theorem C07_corr_sigma_only_partial :
  forall L d c, corr_dom d = true -> sigma_only (load_corr L c d).
Proof. exact corr_sigma_only. Qed.
Print Assumptions C07_corr_sigma_only_partial.

(* without that premise a TypeError escapes (finding corr-nonstring-rule-reference) *)
Theorem C07_corr_sigma_only_refuted : exists L d x, forall c, load_corr L c d = Crash x.
Proof. exact corr_sigma_only_refuted. Qed.
Print Assumptions C07_corr_sigma_only_refuted.

(* correlation rules: whenever collecting mode returns, the whole property holds ... *)
Theorem C07_corr_holds_partial :
  forall L d, corr_dom d = true -> (exists errs, load_corr L true d = Ok errs) ->
              C07_holds (load_corr L false d) (load_corr L true d).
Proof. exact corr_holds_partial. Qed.
Print Assumptions C07_corr_holds_partial.

(* ... but collecting mode does raise (finding corr-collect-raises): condition / alias / consistency
   errors of a correlation rule are raised by from_dict and __post_init__ instead of being collected *)
Theorem C07_corr_collect_total_refuted :
  exists L d e, corr_dom d = true /\ load_corr L true d = SigmaErr e.
Proof. exact corr_collect_total_refuted. Qed.
Print Assumptions C07_corr_collect_total_refuted.

(* what escapes from collecting mode is a Sigma error of a document that strict mode rejects as well *)
Theorem C07_corr_collect_raise_is_invalid :
  forall L d e, load_corr L true d = SigmaErr e -> exists e', load_corr L false d = SigmaErr e'.
Proof. exact corr_collect_raise_is_invalid. Qed.
Print Assumptions C07_corr_collect_raise_is_invalid.

(* for all three loaders and without any premise: if collecting mode returns, strict mode raises exactly
   the first collected error, or succeeds when nothing was collected *)
Theorem C07_collect_first_error :
  forall L stage2 final d errs,
    load_with L stage2 final true d = Ok errs ->
    load_with L stage2 final false d = match errs with [] => Ok [] | e :: _ => SigmaErr e end.
Proof. exact load_with_agrees. Qed.
Print Assumptions C07_collect_first_error.

(* ---- the three statements of the design, over rules, correlation rules and filters at once ---- *)
(* FULL: forall L k c d, sigma_only (load L k c d).  Proved for documents in dom k (a map; detection items in
   the modelled fragment for rules and filters; string rule references for correlation rules). *)
Theorem C07_sigma_only_partial : forall L k c d, dom k d = true -> sigma_only (load L k c d).
Proof. exact sigma_only_all. Qed.
Print Assumptions C07_sigma_only_partial.

(* FULL: forall L k d, exists errs, load L k true d = Ok errs.  Proved for rules and filters on dom k;
   refuted for correlation rules (C07_corr_collect_total_refuted). *)
Theorem C07_collect_total_partial :
  forall L k d, k <> KCorr -> dom k d = true -> exists errs, load L k true d = Ok errs.
Proof. exact collect_total_all. Qed.
Print Assumptions C07_collect_total_partial.

(* full strength, no premise: whenever collecting mode returns, its error list is empty exactly when
   strict loading succeeds, and its first error is exactly what strict loading raises *)
Theorem C07_collect_iff :
  forall L k d errs, load L k true d = Ok errs -> collect_iff (load L k false d) errs.
Proof. exact collect_iff_all. Qed.
Print Assumptions C07_collect_iff.

(* ---- collections: SigmaCollection.from_dicts(docs, collect_errors, None, collect_filters, resolve_references)
        (Model/CollLoader.v: dispatch on action / kind, merging with the global and the previous rule, propagation
        of the members' errors, filter application on placeholders, reference resolution) ---- *)
(* full strength, no premise, every combination of collect_filters / resolve_references: whenever collecting
   mode returns a collection, strict mode raises exactly its first error, or returns too when there is none *)
Theorem C07_coll_collect_first_error :
  forall L cf rr ds errs, load_coll L true cf rr ds = Ok errs ->
    load_coll L false cf rr ds = match errs with [] => Ok [] | e :: _ => SigmaErr e end.
Proof. exact coll_agrees. Qed.
Print Assumptions C07_coll_collect_first_error.

(* only Sigma errors escape from loading a collection, in both modes and for every flag combination, when every
   document the loop hands to a loader (after merging with the global / previous rule) lies in that loader's domain;
   in particular applying a filter never indexes the empty condition list of a placeholder *)
Theorem C07_coll_sigma_only_partial :
  forall L c cf rr ds, coll_dom ds = true -> sigma_only (load_coll L c cf rr ds).
Proof. exact coll_sigma_only. Qed.
Print Assumptions C07_coll_sigma_only_partial.

(* collecting mode returns for collections without correlation rules whose filters are collected, not applied
   (the way load_ruleset reads a file) *)
Theorem C07_coll_collect_total_partial :
  forall L rr ds, forallb item_dom_rf (plan ds) = true -> exists errs, load_coll L true true rr ds = Ok errs.
Proof. exact coll_collect_total. Qed.
Print Assumptions C07_coll_collect_total_partial.

(* with filters applied inside the constructor it does not (finding collection-postprocessing-raises): a filter whose
   log source is the placeholder meets a rule *)
Theorem C07_coll_postprocessing_refuted :
  exists L ds e, coll_dom ds = true /\ load_coll L true false true ds = SigmaErr e /\
                 exists errs, load_coll L true true false ds = Ok errs.
Proof. exact coll_post_refuted. Qed.
Print Assumptions C07_coll_postprocessing_refuted.

(* non-vacuity: a rule with modifier chains lies in the domain and loads without errors; the
   correlation witness of the refutation lies in corr_dom *)
Example C07_premises_inhabited :
  rule_dom w_rule = true /\ load_rule lib_w true w_rule = Ok [] /\ load_rule lib_w false w_rule = Ok [] /\
  corr_dom w_corr_nofield = true.
Proof. exact premises_inhabited. Qed.
