(* C08 - A failing rule never changes other rules' output; every query is accounted for.
   Only statements with Print Assumptions.  Most are closed by `exact`; C08_one_record_per_failure and
   C08_isolation by the few steps that assemble lemmas of Proofs/CollectionP.v into the stated conjunction.

   Reading guide.  `convert ... collect C` is the model of Backend.convert (Model/Collection.v; D12, D13 and the
   nested-correlation variant of D13 are repaired in the code and the model follows the repaired code).  It
   returns the state left behind (stored results, backend.errors as (position, class), emitted queries) and the
   returned value.  `trees C` unfolds the collection into one dependency tree per rule (Spec/Collection.v): a
   leaf for a detection rule - it mentions the rule and its two flags (output switch, back reference) and nothing
   else -, a node with the trees of the referenced rules for a correlation rule.  `alone t` converts such a tree
   with no collection, no backend state and no error list: "what converting that rule alone yields".
   The statements hold for every per-rule conversion function conv1, finalisation finq, correlation functions
   cpre/cpost, output finalisation finout, for both values of finalize_correlation_subqueries, and for
   collections of any length with any reference structure (forward and self references included). *)
From Coq Require Import NArith List Bool Sorted.
From PS Require Import Base.Outcome Model.Collection Spec.Collection Proofs.CollectionP Proofs.PerCondP.
Import ListNotations.

(* collecting mode: the result is the concatenation, in collection order, of the queries each rule yields on its
   own (nothing for a rule that fails or whose output is switched off); errors holds the records of exactly the
   failing rules; the stored results are the rules' own.  Premise: no non-Sigma exception (see C08_crash). *)
Theorem C08_accounting :
  forall (query drule crule output : Type) (conv1 : drule -> outcome (list query))
         (finq : payload drule crule -> nat -> query -> outcome query) (cpre : crule -> outcome unit)
         (cpost : crule -> list (list query) -> outcome (list query)) (finout : list query -> outcome output)
         (fcs : bool) (C : list (rule drule crule)),
    forallb (fun t => negb (is_crash (ret (alone query drule crule conv1 finq cpre cpost fcs t)))) (trees drule crule C) = true ->
    convert query drule crule output conv1 finq cpre cpost finout fcs true C =
    ({| results := map (sopt query drule crule conv1 finq cpre cpost fcs) (trees drule crule C);
        errors := exp_errors query drule crule conv1 finq cpre cpost fcs 0 (trees drule crule C);
        emitted := exp_queries query drule crule conv1 finq cpre cpost fcs (trees drule crule C) |},
     finout (exp_queries query drule crule conv1 finq cpre cpost fcs (trees drule crule C))).
Proof. exact accounting. Qed.
Print Assumptions C08_accounting.

(* exactly one (rule, error) record per failing rule, in collection order *)
Theorem C08_one_record_per_failure :
  forall (query drule crule : Type) (conv1 : drule -> outcome (list query))
         (finq : payload drule crule -> nat -> query -> outcome query) (cpre : crule -> outcome unit)
         (cpost : crule -> list (list query) -> outcome (list query)) (fcs : bool) (ts : list (dtree drule crule)),
    (forall k e, In (k, e) (exp_errors query drule crule conv1 finq cpre cpost fcs 0 ts) <->
                 exists t, nth_error ts k = Some t /\ ret (alone query drule crule conv1 finq cpre cpost fcs t) = SigmaErr e) /\
    StronglySorted (fun a b => fst a < fst b) (exp_errors query drule crule conv1 finq cpre cpost fcs 0 ts).
Proof.
  intros. split; [|apply exp_errors_sorted]. intros k e. rewrite exp_errors_In. split.
  - intros (j & t & -> & H). exists t. exact H.
  - intros (t & H). exists k, t. auto.
Qed.
Print Assumptions C08_one_record_per_failure.

(* isolation: replace the contents of any set of detection rules at any positions by anything (failing at any
   stage or not); a detection rule d that stays has the same dependency tree - the leaf below, which mentions
   nothing but d and its flags - hence by C08_accounting the same stored result, the same emitted queries and
   the same error record in both collections *)
Theorem C08_isolation :
  forall (query drule crule : Type) (conv1 : drule -> outcome (list query))
         (finq : payload drule crule -> nat -> query -> outcome query) (cpre : crule -> outcome unit)
         (cpost : crule -> list (list query) -> outcome (list query)) (fcs : bool)
         (C C' : list (rule drule crule)) (i : nat) (d : drule),
    Forall2 (same_shape drule crule) C C' ->
    nth_error C i = Some (Det d) -> nth_error C' i = Some (Det d) ->
    nth_error (trees drule crule C') i = nth_error (trees drule crule C) i /\
    nth_error (trees drule crule C) i = Some (Leaf d (out_enabled drule crule C i) (has_backref drule crule C i)) /\
    alone query drule crule conv1 finq cpre cpost fcs (Leaf d (out_enabled drule crule C i) (has_backref drule crule C i))
    = finish query drule crule finq fcs (PD d) (out_enabled drule crule C i) (has_backref drule crule C i) (conv1 d).
Proof.
  intros query drule crule conv1 finq cpre cpost fcs C C' i d HS H H'. split; [|split].
  - symmetry. exact (isolation query drule crule conv1 finq cpre cpost C C' i d HS H H').
  - exact (tree_det drule crule C i d H).
  - reflexivity.
Qed.
Print Assumptions C08_isolation.

(* non-collecting mode: the error of the first failing rule (in collection order) is raised, nothing is recorded *)
Theorem C08_first_error :
  forall (query drule crule output : Type) (conv1 : drule -> outcome (list query))
         (finq : payload drule crule -> nat -> query -> outcome query) (cpre : crule -> outcome unit)
         (cpost : crule -> list (list query) -> outcome (list query)) (finout : list query -> outcome output)
         (fcs : bool) (C : list (rule drule crule)) (pre : list (dtree drule crule))
         (t : dtree drule crule) (post : list (dtree drule crule)),
    trees drule crule C = pre ++ t :: post ->
    forallb (fun t0 => is_ok (ret (alone query drule crule conv1 finq cpre cpost fcs t0))) pre = true ->
    is_ok (ret (alone query drule crule conv1 finq cpre cpost fcs t)) = false ->
    convert query drule crule output conv1 finq cpre cpost finout fcs false C =
    ({| results := map (sopt query drule crule conv1 finq cpre cpost fcs) pre;
        errors := [];
        emitted := exp_queries query drule crule conv1 finq cpre cpost fcs pre |},
     err_of (ret (alone query drule crule conv1 finq cpre cpost fcs t))).
Proof. exact first_error. Qed.
Print Assumptions C08_first_error.

(* no failing rule: both modes return every query and record nothing *)
Theorem C08_no_error :
  forall (query drule crule output : Type) (conv1 : drule -> outcome (list query))
         (finq : payload drule crule -> nat -> query -> outcome query) (cpre : crule -> outcome unit)
         (cpost : crule -> list (list query) -> outcome (list query)) (finout : list query -> outcome output)
         (fcs : bool) (C : list (rule drule crule)),
    forallb (fun t => is_ok (ret (alone query drule crule conv1 finq cpre cpost fcs t))) (trees drule crule C) = true ->
    forall collect : bool,
    convert query drule crule output conv1 finq cpre cpost finout fcs collect C =
    ({| results := map (sopt query drule crule conv1 finq cpre cpost fcs) (trees drule crule C);
        errors := [];
        emitted := exp_queries query drule crule conv1 finq cpre cpost fcs (trees drule crule C) |},
     finout (exp_queries query drule crule conv1 finq cpre cpost fcs (trees drule crule C))).
Proof. exact no_error. Qed.
Print Assumptions C08_no_error.

(* collecting mode does not swallow a non-Sigma exception: it propagates from the first rule that raises one,
   with the records collected so far *)
Theorem C08_crash :
  forall (query drule crule output : Type) (conv1 : drule -> outcome (list query))
         (finq : payload drule crule -> nat -> query -> outcome query) (cpre : crule -> outcome unit)
         (cpost : crule -> list (list query) -> outcome (list query)) (finout : list query -> outcome output)
         (fcs : bool) (C : list (rule drule crule)) (pre : list (dtree drule crule))
         (t : dtree drule crule) (post : list (dtree drule crule)) (c : N),
    trees drule crule C = pre ++ t :: post ->
    forallb (fun t0 => negb (is_crash (ret (alone query drule crule conv1 finq cpre cpost fcs t0)))) pre = true ->
    ret (alone query drule crule conv1 finq cpre cpost fcs t) = Crash c ->
    convert query drule crule output conv1 finq cpre cpost finout fcs true C =
    ({| results := map (sopt query drule crule conv1 finq cpre cpost fcs) pre;
        errors := exp_errors query drule crule conv1 finq cpre cpost fcs 0 pre;
        emitted := exp_queries query drule crule conv1 finq cpre cpost fcs pre |}, Crash c).
Proof. exact crash_propagates. Qed.
Print Assumptions C08_crash.

(* "alone" is literally the conversion of the one-rule collection *)
Theorem C08_alone_is_singleton :
  forall (query drule crule output : Type) (conv1 : drule -> outcome (list query))
         (finq : payload drule crule -> nat -> query -> outcome query) (cpre : crule -> outcome unit)
         (cpost : crule -> list (list query) -> outcome (list query)) (finout : list query -> outcome output)
         (fcs : bool) (d : drule) (collect : bool),
    convert query drule crule output conv1 finq cpre cpost finout fcs collect [Det d] =
    let rr := alone query drule crule conv1 finq cpre cpost fcs (Leaf d true false) in
    match ret rr with
    | Ok qs => ({| results := [stored rr]; errors := []; emitted := qs |}, finout qs)
    | SigmaErr e => if collect then ({| results := [stored rr]; errors := [(0, e)]; emitted := [] |}, finout [])
                    else (init query, SigmaErr e)
    | Crash c => (init query, Crash c)
    end.
Proof. exact alone_singleton. Qed.
Print Assumptions C08_alone_is_singleton.

(* the result a rule leaves for the correlation rules referring to it does not depend on its own output switch
   (generate: true / false of the referring rules): a correlation rule's query is the same in both cases *)
Theorem C08_stored_independent_of_output :
  forall (query drule crule : Type) (finq : payload drule crule -> nat -> query -> outcome query) (fcs : bool)
         (p : payload drule crule) (out out' br : bool) (raw : outcome (list query)),
    stored (finish query drule crule finq fcs p out br raw) = stored (finish query drule crule finq fcs p out' br raw).
Proof. exact stored_out_irrelevant. Qed.
Print Assumptions C08_stored_independent_of_output.

(* isolation for every rule, correlation rules included: the dependency tree of rule i - hence its outcome, stored
   result, emitted queries and error record - is determined by the rules reachable from i through backward
   references (and the reference structure); whatever happens to any other rule, at any position, is irrelevant *)
Theorem C08_isolation_closure :
  forall (drule crule : Type) (C C' : list (rule drule crule)),
    Forall2 (same_shape drule crule) C C' ->
    forall i, (forall k, reach drule crule C i k -> nth_error C k = nth_error C' k) ->
    nth_error (trees drule crule C) i = nth_error (trees drule crule C') i.
Proof. exact closure_isolation. Qed.
Print Assumptions C08_isolation_closure.

(* "exactly one query per condition": a detection rule whose output is enabled and whose conditions convert to
   qs emits exactly length qs queries, in the order of the conditions, the k-th one being the finalisation of
   the k-th condition's query with index k (finalize_query receives the position) - for both ways the
   stored/raw decision can go (back reference, finalize_correlation_subqueries) *)
Theorem C08_one_query_per_condition :
  forall (query drule crule : Type) (conv1 : drule -> outcome (list query))
         (finq : payload drule crule -> nat -> query -> outcome query) (cpre : crule -> outcome unit)
         (cpost : crule -> list (list query) -> outcome (list query)) (fcs : bool)
         (d : drule) (br : bool) (qs fqs : list query),
    conv1 d = Ok qs ->
    ret (alone query drule crule conv1 finq cpre cpost fcs (Leaf d true br)) = Ok fqs ->
    length fqs = length qs /\
    forall k, k < length qs ->
      exists q q', nth_error qs k = Some q /\ nth_error fqs k = Some q' /\ finq (PD d) k q = Ok q'.
Proof. exact leaf_one_query_per_condition. Qed.
Print Assumptions C08_one_query_per_condition.

(* a rule whose query finalisation fails: its outcome is that of the first condition (in order) whose
   finalisation fails; every earlier condition finalised *)
Theorem C08_first_failing_condition :
  forall (query drule crule : Type) (conv1 : drule -> outcome (list query))
         (finq : payload drule crule -> nat -> query -> outcome query) (cpre : crule -> outcome unit)
         (cpost : crule -> list (list query) -> outcome (list query)) (fcs : bool)
         (d : drule) (br : bool) (qs : list query),
    conv1 d = Ok qs ->
    is_okb (ret (alone query drule crule conv1 finq cpre cpost fcs (Leaf d true br))) = false ->
    exists k q, nth_error qs k = Some q /\
                ret (alone query drule crule conv1 finq cpre cpost fcs (Leaf d true br)) = recast (finq (PD d) k q) /\
                forall j qj, j < k -> nth_error qs j = Some qj -> is_okb (finq (PD d) j qj) = true.
Proof. exact leaf_first_failing_condition. Qed.
Print Assumptions C08_first_failing_condition.

(* output switched off (referenced without generate: true): nothing is emitted; the rule can only fail through a
   finalisation whose result the referring rules need *)
Theorem C08_output_off_emits_nothing :
  forall (query drule crule : Type) (conv1 : drule -> outcome (list query))
         (finq : payload drule crule -> nat -> query -> outcome query) (cpre : crule -> outcome unit)
         (cpost : crule -> list (list query) -> outcome (list query)) (fcs : bool)
         (d : drule) (br : bool) (qs : list query),
    conv1 d = Ok qs ->
    ret (alone query drule crule conv1 finq cpre cpost fcs (Leaf d false br)) = Ok [] \/
    (fcs || negb br = true /\ is_okb (Collection.fin_all query drule crule finq (PD d) 0 qs) = false /\
     ret (alone query drule crule conv1 finq cpre cpost fcs (Leaf d false br)) =
     recast (Collection.fin_all query drule crule finq (PD d) 0 qs)).
Proof. exact leaf_output_off. Qed.
Print Assumptions C08_output_off_emits_nothing.

(* non-vacuity: a collection with a failing rule in the middle, a rule referred to with generate: true and a
   correlation rule satisfies the premises, and the statement gives a non-trivial result *)
Example C08_premises_inhabited :
  let conv1 := fun d : nat => if Nat.eqb d 0 then SigmaErr 2%N else Ok [d; S d] in
  let finq := fun (_ : payload nat unit) (_ : nat) (q : nat) => Ok (q + 100) in
  let cpre := fun _ : unit => Ok tt in
  let cpost := fun (_ : unit) (qss : list (list nat)) => Ok [length (concat qss)] in
  let C := [Det 1; Det 0; Det 5; Cor tt [2; 1] true; Cor tt [0] false] in
  forallb (fun t => negb (is_crash (ret (alone nat nat unit conv1 finq cpre cpost false t)))) (trees nat unit C) = true /\
  exp_queries nat nat unit conv1 finq cpre cpost false (trees nat unit C) = [105; 106; 102] /\
  exp_errors nat nat unit conv1 finq cpre cpost false 0 (trees nat unit C) = [(1, 2%N); (3, E_Conversion)] /\
  convert nat nat unit (list nat) conv1 finq cpre cpost (fun qs => Ok qs) false true C =
  ({| results := [Some [1; 2]; None; Some [5; 6]; None; Some [102]]; errors := [(1, 2%N); (3, E_Conversion)];
      emitted := [105; 106; 102] |}, Ok [105; 106; 102]).
Proof. vm_compute. repeat split. Qed.
