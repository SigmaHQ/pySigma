(* C09 - rule references resolve the same way whatever the document order.
   The model (Model.RefOrder) follows the REPAIRED code of the repo worktree (two `fix:` commits:
   topological order instead of sorted() with a partial order; output suppression also for
   correlation rules).  A rule is identified by the position of its document; `rr` is the table of
   resolved references; the backend's rendering functions rplain / rcorr are arbitrary. *)
From Coq Require Import NArith List Bool Arith Permutation.
From PS Require Import Base.Chars Base.Outcome Model.RefOrder Spec.RefOrder Proofs.RefOrderP.
Import ListNotations.
Local Open Scope nat_scope.

(* every referenced rule is converted before the rules referring to it: the order of
   collection.rules after loading, and again after Backend.convert re-resolved the references, is a
   permutation of the documents in which every referenced rule precedes each of its referrers *)
Theorem C09_topo :
  forall ds rr o1, load ds = Ok (rr, o1) -> acyclic rr ->
    Permutation o1 (seq 0 (length ds)) /\ topo_ok rr o1 /\
    Permutation (topo rr o1) (seq 0 (length ds)) /\ topo_ok rr (topo rr o1).
Proof. exact load_topo. Qed.
Print Assumptions C09_topo.

(* the ordering step alone, for any list of rules without repetition and any reference table *)
Theorem C09_topo_general :
  forall rr M, NoDup M -> Permutation (topo rr M) M /\
    ((forall i, In i M -> incl (nth i rr []) M) -> acyclic rr -> topo_ok rr (topo rr M)).
Proof. intros rr M H. split; [exact (topo_perm rr M H) | exact (topo_topo_ok rr M)]. Qed.
Print Assumptions C09_topo_general.

(* the ordering step leaves a list that is already in reference order alone, so the second resolution
   done by Backend.convert keeps the order the collection got when it was loaded *)
Theorem C09_order_stable :
  (forall rr M, NoDup M -> topo_ok rr M -> topo rr M = M) /\
  (forall Q rplain rcorr ds c rr, pipeline Q rplain rcorr ds = Ok c -> resolve_all ds = Some rr ->
     c_order_conv c = c_order_load c).
Proof. split; [exact topo_fixpoint | exact order_conv_eq_load]. Qed.
Print Assumptions C09_order_stable.

(* an acyclic rule set whose references all resolve is converted completely, in every case *)
Theorem C09_conversion_total :
  forall Q rplain rcorr ds rr, resolve_all ds = Some rr -> acyclic rr ->
    exists c, pipeline Q rplain rcorr ds = Ok c.
Proof. exact pipeline_total. Qed.
Print Assumptions C09_conversion_total.

(* a reference to a missing rule is reported as SigmaRuleNotFoundError at load time, and that error
   is raised for no other reason *)
Theorem C09_missing_ref :
  forall Q rplain rcorr ds,
    (pipeline Q rplain rcorr ds = SigmaErr E_NotFound <-> has_dangling ds) /\
    (load ds = SigmaErr E_NotFound <-> has_dangling ds).
Proof. intros. exact (conj (pipeline_missing_ref Q rplain rcorr ds) (load_missing_ref ds)). Qed.
Print Assumptions C09_missing_ref.

(* output flag: every rule is converted (its result is stored for its referrers); a rule some
   correlation rule refers to without asking for generation emits no query of its own; a rule that is
   unreferenced or referenced only with generation enabled emits all its queries.  (A rule
   referenced both with and without generation is left open by the property; the code suppresses.) *)
Theorem C09_output_flag :
  forall Q rplain rcorr ds c rr i,
    pipeline Q rplain rcorr ds = Ok c -> resolve_all ds = Some rr -> i < length ds ->
    get Q (c_results c) i <> None /\
    ((exists k, referrer ds rr k i false) -> forall q, ~ In (i, q) (c_emitted c)) /\
    ((forall k, ~ referrer ds rr k i false) ->
       forall q, In q (own Q (c_results c) i) -> In (i, q) (c_emitted c)).
Proof. exact pipeline_flags. Qed.
Print Assumptions C09_output_flag.

(* the reference table holds exactly what the reference strings say: rule j is in rr[i] iff one of
   document i's references resolves to j, and resolving means: j carries that name / id *)
Theorem C09_resolution_sound :
  forall ds rr i j, resolve_all ds = Some rr -> In j (nth i rr []) ->
    exists d, nth_error ds i = Some d /\ exists r, In r (doc_refs d) /\ lookup ds r = Some j
      /\ exists t, nth_error ds j = Some t /\ matches r t = true.
Proof.
  intros ds rr i j H Hj. destruct (resolved_children ds rr i j H Hj) as [d [Hd [r [Hr Hl]]]].
  exists d. split; [exact Hd|]. exists r. repeat split; auto. exact (lookup_Some ds r j Hl).
Qed.
Print Assumptions C09_resolution_sound.

(* the property: for every ordering p of the documents ds of a rule set in which every name / id is
   carried by one document, loading and converting p and ds ends the same way: either both raise the
   same Sigma error (SigmaRuleNotFoundError at load time for a dangling reference, SigmaConversionError
   for a reference cycle), or both succeed and return the same multiset of (rule, query).
   Holds for every backend rendering (rplain, rcorr).  same_outcome: Spec.RefOrder. *)
Theorem C09_order_independent :
  forall Q rplain rcorr p ds,
    Permutation p ds -> unique_keys ds ->
    same_outcome p ds (pipeline Q rplain rcorr p) (pipeline Q rplain rcorr ds).
Proof. exact order_independent_full. Qed.
Print Assumptions C09_order_independent.

(* a conversion that succeeds has met every referenced rule before its referrers: a rule set with a
   reference cycle is rejected (SigmaConversionError) in every order *)
Theorem C09_cycle_rejected :
  forall Q rplain rcorr ds rr, resolve_all ds = Some rr ->
    (forall c, pipeline Q rplain rcorr ds = Ok c -> acyclic rr) /\
    ((exists c, pipeline Q rplain rcorr ds = Ok c) \/ pipeline Q rplain rcorr ds = SigmaErr E_Conversion).
Proof.
  intros Q rplain rcorr ds rr Hr. split.
  - intros c Hc. exact (pipeline_Ok_acyclic Q rplain rcorr ds c rr Hc Hr).
  - exact (pipeline_cases Q rplain rcorr ds rr Hr).
Qed.
Print Assumptions C09_cycle_rejected.

(* the same, keyed by rule title *)
Theorem C09_order_independent_by_title :
  forall Q rplain rcorr p ds c' c,
    Permutation p ds -> unique_keys ds ->
    pipeline Q rplain rcorr p = Ok c' -> pipeline Q rplain rcorr ds = Ok c ->
    Permutation (by_title p (c_emitted c')) (by_title ds (c_emitted c)).
Proof. exact order_independent_by_title. Qed.
Print Assumptions C09_order_independent_by_title.

(* acyclicity on positions (C09_topo) and on documents (reference strings against names / ids) agree *)
Theorem C09_acyclic_docs_index :
  forall ds rr, resolve_all ds = Some rr ->
    (acyclic_docs ds -> acyclic rr) /\ (unique_keys ds -> acyclic rr -> acyclic_docs ds).
Proof.
  intros ds rr Hr. split.
  - exact (acyclic_docs_index ds rr Hr).
  - intros Hu. exact (acyclic_index_docs ds rr Hr Hu).
Qed.
Print Assumptions C09_acyclic_docs_index.

(* the premise is decidable; unique_keysb is what the correspondence judge evaluates (bit 4) *)
Theorem C09_unique_keys_decided : forall ds, unique_keysb ds = true <-> unique_keys ds.
Proof. exact unique_keysb_spec. Qed.
Print Assumptions C09_unique_keys_decided.

(* non-vacuity: the premises hold for the five-document witness set of D22 *)
Example C09_premises_inhabited : unique_keys wit_docs /\ acyclic_docs wit_docs.
Proof. exact wit_premises. Qed.

(* DEFECT D22 (repaired by a `fix:` commit): the ORIGINAL ordering step sorted(self.rules) with
   __lt__ = "is referenced by" (model: CPython's binary insertion sort, pipeline_sorted).
   FULL STATEMENT that was false of the original code:
     forall ds p, Permutation p ds -> pipeline_sorted p fails <-> pipeline_sorted ds fails
   witness: documents a, b, u, c -> [a, b], d -> [c, u]; in the order d, c, u, b, a the original code
   fails with "Conversion result not available" although the document order a, b, u, c, d converts;
   66 of the 120 orders fail.  The repaired pipeline converts all 120. *)
Theorem C09_sorted_refuted :
  exists ds p, Permutation p ds
    /\ is_ok (pipeline_sorted str tq_plain tq_corr ds) = true
    /\ pipeline_sorted str tq_plain tq_corr p = SigmaErr E_Conversion
    /\ is_ok (pipeline str tq_plain tq_corr p) = true.
Proof. exact sorted_refuted. Qed.
Print Assumptions C09_sorted_refuted.

Theorem C09_sorted_66_of_120 :
  length (perms wit_docs) = 120 /\
  length (filter (fun p => negb (is_ok (pipeline_sorted str tq_plain tq_corr p))) (perms wit_docs)) = 66 /\
  forallb (fun p => is_ok (pipeline str tq_plain tq_corr p)) (perms wit_docs) = true.
Proof. exact sorted_fails_66_of_120. Qed.
Print Assumptions C09_sorted_66_of_120.

(* known finding C09-duplicate-key-last-document-wins: without the premise unique_keys the result
   depends on the document order *)
Theorem C09_duplicate_key_refuted :
  exists ds p q, Permutation p ds
    /\ In q (emitted_queries (pipeline str tq_plain tq_corr ds))
    /\ ~ In q (emitted_queries (pipeline str tq_plain tq_corr p)).
Proof. exact duplicate_key_refuted. Qed.
Print Assumptions C09_duplicate_key_refuted.
