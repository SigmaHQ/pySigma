(* C10 - correlation queries carry every element of the correlation rule.
   Only statements, each closed by `exact`, with Print Assumptions.
   Model/Corr.v is the model of the converter for the verification backend of impl/c10.py (every
   template element is a tagged bracket <tag|...>); Spec/CorrSpec.v `expected` is the tree the
   property demands, built per element from the rule document, the referenced rules' own queries
   and the per-name renaming of the pipeline. *)
From Coq Require Import List NArith ZArith Bool.
From PS Require Import Base.Chars Base.Outcome Model.Backend Spec.Target Model.BTree Model.Corr Spec.CorrSpec
                       Proofs.BackendDomP Proofs.BTreeP Proofs.CorrP.
Import ListNotations.

(* the text format is lossless: printing a well-formed bracket tree and reading the text back gives
   the tree (unbounded depth and width; the reader's fuel always suffices) *)
Theorem C10_tree_roundtrip : forall l, wfl l = true -> readc (showc l) = Some l.
Proof. exact btree_read_show. Qed.
Print Assumptions C10_tree_roundtrip.

(* FULL STATEMENT (false of the faithful model, see the refutations below):
     forall K P r t, clean_rule r = true -> convc K P r = Ok t ->
       exists t', readc (showc t) = Some t' /\ expected K P r = Ok (normalize (first_id r) t')
   proved part: for every backend variant K (precedence, templates present or absent, timespan mode,
   finalisation), every pipeline P of field mappings / prefixes / suffixes with or without log source
   conditions and every correlation rule r (any type, any number of referenced rules with any number
   of queries each, any aliases / group-by / fields / condition) in the domain
     dom = all names bracket-free
           /\ alias entries and rule references that mean the same rule are spelled the same
           /\ every conditioned pipeline item applies to all referenced rules or to none,
   the emitted text reads back to a tree that equals the specification's tree: every referenced
   rule's own queries (plain or correlation rule alike: finalised iff the backend opts in) in
   reference order with name-or-id tags, per-rule alias normalisations with
   renamed targets, time span, group-by, fields, operator, count, field, percentile, rule ids. *)
Theorem C10_readback_partial : forall K P r t, dom K P r = true -> convc K P r = Ok t ->
  exists t', readc (showc t) = Some t' /\ expected K P r = Ok (normalize (first_id r) t').
Proof. exact readback. Qed.
Print Assumptions C10_readback_partial.

Theorem C10_alias_other_identifier_refuted :
  exists K P r t, clean_rule r = true /\ convc K P r = Ok t /\ expected K P r <> Ok (normalize (first_id r) t).
Proof. exact alias_other_identifier_refuted. Qed.
Print Assumptions C10_alias_other_identifier_refuted.

Theorem C10_conditioned_renaming_refuted :
  exists K P r t, clean_rule r = true /\ convc K P r = Ok t /\ expected K P r <> Ok (normalize (first_id r) t).
Proof. exact conditioned_renaming_refuted. Qed.
Print Assumptions C10_conditioned_renaming_refuted.

(* the time span: seconds = count x unit length for each of the seven units (and nothing else is a
   unit), the count is Python's int() of everything before the unit, and the number printed in
   seconds mode reads back as exactly count x unit length *)
Theorem C10_timespan : forall spec t, parse_ts spec = Some t ->
  exists len, unit_len (t_unit t) = Some len /\ t_seconds t = (t_count t * len)%Z /\
              py_int (render_ts TsSeconds spec t) = Some (t_count t * len)%Z /\
              (exists body, spec = body ++ [t_unit t] /\ py_int body = Some (t_count t)).
Proof. exact timespan_seconds. Qed.
Print Assumptions C10_timespan.

Theorem C10_unit_table :
  unit_len 115 = Some 1%Z /\ unit_len 109 = Some 60%Z /\ unit_len 104 = Some 3600%Z /\
  unit_len 100 = Some 86400%Z /\ unit_len 119 = Some 604800%Z /\ unit_len 77 = Some 2629746%Z /\
  unit_len 121 = Some 31556952%Z /\
  (forall u, u <> 115 -> u <> 109 -> u <> 104 -> u <> 100 -> u <> 119 -> u <> 77 -> u <> 121 -> unit_len u = None)%N.
Proof. exact unit_table. Qed.
Print Assumptions C10_unit_table.

(* str(int) followed by int() is the identity (counts, percentiles, seconds) *)
Theorem C10_int_roundtrip : forall z, py_int (dec_of_Z z) = Some z.
Proof. exact py_int_dec. Qed.
Print Assumptions C10_int_roundtrip.

(* an extended condition keeps its and/or/not structure: for each of the six precedence orders, with
   or without `parenthesize`, the emitted tokens, read by the target language's own precedence rules,
   denote the boolean function of the condition tree over the rule references - for every truth
   assignment (instance of C01_structure with rule references as atoms) *)
Theorem C10_extended_structure : forall K asg t, cfg_ok K = true -> xshape t = true ->
  exists f, pe (lvl K) asg f 3 (conv (xcfg K) false t) = Some (den asg t, []).
Proof. exact ext_structure. Qed.
Print Assumptions C10_extended_structure.

(* FULL STATEMENT for the rule references inside an extended condition (each printed atom carries the
   name-or-id that tags the rule's queries in the search part) is false of the faithful model: *)
Theorem C10_extended_reference_spelling_refuted :
  exists K r t xn, convc K [] r = Ok t /\ find_x t = Some xn /\
                   lex_nodes (map (fun rf => ruleid (rr_info rf)) (referenced r)) xn = None.
Proof. exact extended_reference_spelling_refuted. Qed.
Print Assumptions C10_extended_reference_spelling_refuted.

(* the pipeline on the correlation rule, item by item with its error cases, is the per-name renaming:
   fields and group-by name by name (alias names untouched), alias targets and condition field by the
   renaming that must yield exactly one name *)
Theorem C10_pipeline_per_name : forall P cats st st', run_pipeline P cats st = Ok st' ->
  ps_fields st' = flat_map (renl P cats) (ps_fields st) /\
  Forall2 (al_rel (ren1 P cats)) (ps_aliases st) (ps_aliases st') /\
  ps_gb st' = option_map (flat_map (reng P cats (map fst (ps_aliases st)))) (ps_gb st) /\
  cf_rel (ren1 P cats) (ps_cf st) (ps_cf st').
Proof. exact run_pipeline_spec. Qed.
Print Assumptions C10_pipeline_per_name.

(* field-name pipelines rename alias targets and the condition field consistently with the renaming
   applied to the referenced rules: the new name in the correlation query is what the pipeline makes
   of that very field in each referenced rule (ref_fields is the pipeline run on that rule) *)
Theorem C10_mapping_consistent : forall K P r st,
  sdom K P r = true ->
  run_pipeline P (flat_map (fun rf => ri_cats (rr_info rf)) (referenced r))
    {| ps_fields := r_fields r; ps_aliases := r_aliases r; ps_gb := r_gb r;
       ps_cf := match the_cond r with CBasic _ _ f _ => f | CExt _ => FNone end |} = Ok st ->
  Forall2 (fun am am' : str * list (str * nat * str) =>
             fst am = fst am' /\
             Forall2 (fun e e' : str * nat * str =>
                        fst e = fst e' /\
                        forall rf, In rf (referenced r) ->
                                   ref_fields P (ri_cats (rr_info rf)) [snd e] = [snd e'])
                     (snd am) (snd am'))
          (r_aliases r) (ps_aliases st)
  /\ match the_cond r, ps_cf st with
     | CBasic _ _ (FOne x) _, FOne y =>
         forall rf, In rf (referenced r) -> ref_fields P (ri_cats (rr_info rf)) [x] = [y]
     | _, _ => True
     end.
Proof. exact mapping_consistent. Qed.
Print Assumptions C10_mapping_consistent.

(* non-vacuity: a two-rule correlation with aliases, group-by and a renaming pipeline lies in the
   domain and converts; so do an extended condition over two rules and a correlation rule that
   references another correlation rule on a backend without sub-query finalisation *)
Example C10_premises_inhabited :
  dom K0 P_good r_good = true /\ (exists t, convc K0 P_good r_good = Ok t) /\
  dom K0 [] r_hex = true /\ cfg_ok (k_cfg K0) = true /\
  dom K0 [] r_nested = true /\ (exists t, convc K0 [] r_nested = Ok t).
Proof. exact premises_inhabited. Qed.
