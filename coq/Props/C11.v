(* C11 - A filter narrows exactly the rules it targets and nothing else.
   Only statements, each closed by `exact`, with Print Assumptions.

   Model: Model/Filter.v (SigmaLogSource.__contains__, SigmaFilter._should_apply_on_rule /
   apply_on_rule after the repairs of D14 and D16, SigmaCollection.apply_filters), reading conditions
   through Model/FCondParse.v + Model/FCond.v (the C02 model of sigma/conditions.py).
   Specification: Spec/FilterSpec.v (applies, narrowed: truth tables over detection OBJECTS),
   Spec/FCondGrammar.v (Spells, wf_expr, sem). *)
From Coq Require Import NArith ZArith List Bool.
From PS Require Import Base.Chars Base.Outcome Model.FCondParse Model.FCond Spec.FGlob Spec.FCondGrammar
                       Model.Filter Spec.FilterSpec Proofs.FilterP Proofs.FilterStackP.
Import ListNotations.

(* A filter is applied to a rule iff the rule is a detection rule, every attribute of the filter's
   log source has the same value in the rule's, and the rule list is 'any' or contains a reference
   naming the rule (by id when the text is a UUID, else by name). *)
Theorem C11_applies_iff : forall f r, should_apply f r = true <-> applies f r.
Proof. exact should_apply_iff. Qed.
Print Assumptions C11_applies_iff.

(* the executable applicability relation evaluated by the specification oracle of the correspondence
   check is that specification *)
Theorem C11_oracle_applies : forall f r, applies_b f r = true <-> applies f r.
Proof. exact applies_b_spec. Qed.
Print Assumptions C11_oracle_applies.

(* FULL STATEMENT (false of the faithful model, see the four refutations below):
     forall draws f r r' rest, should_apply f r = true -> apply_on_rule draws f r = Some (r', rest) -> narrowed r f r'
   Proved part. For EVERY sequence of draws (any lower-case strings; the re-draw loop picks the first
   one no identifier of the rule starts with) and whatever prefix results: if
     - the filter condition is a spelling (any blanks / redundant parentheses) of a well-formed
       expression over the filter's detections with inhabited selectors (reads), whose identifiers
       and patterns are not keywords of the rewrite in any letter case and not 'them' (plain),
     - no filter detection name begins with '_',
     - every rule condition is such a spelling over the rule's detections and none of its selector
       patterns begins with '_',
   then the rule keeps its detections, the filter's detections are appended under prefixed names,
   every new condition loads, and for EVERY truth assignment to the detection objects its value is
   (value of the rule condition over the rule's bindings) AND (value of the filter condition over the
   filter's bindings): no rule selector captures a filter detection, no filter identifier or
   selector a rule detection - for overlapping names on both sides, names beginning with
   operator/keyword words, digits, '-' (and '_' on the rule side). *)
Theorem C11_meaning_partial :
  forall draws f r ef r' rest,
    should_apply f r = true ->
    Forall (fun d => lower_draw d = true) draws ->
    NoDup (names (f_dets f)) ->
    reads (f_dets f) (f_cond f) ef -> plain ef = true ->
    (forall n, In n (names (f_dets f)) -> us n = false) ->
    Forall (fun c => exists e, reads (r_dets r) c e /\ no_us_patterns e = true) (r_conds r) ->
    apply_on_rule draws f r = Some (r', rest) ->
    (exists p, r_dets r' = r_dets r ++ map (ren p) (f_dets f)) /\ narrowed r f r'.
Proof. exact meaning_main. Qed.
Print Assumptions C11_meaning_partial.

(* the same with the exact condition on the rule's patterns, for any well-formed prefix that is fresh
   for the rule (this is the form that composes when filters are stacked: the patterns left by an
   earlier filter begin with '_filt_<other prefix>_') *)
Theorem C11_meaning_prefix_partial :
  forall p f r ef,
    wf_prefix p = true -> fresh p (r_dets r) = true -> NoDup (names (f_dets f)) ->
    reads (f_dets f) (f_cond f) ef -> plain ef = true ->
    (forall n, In n (names (f_dets f)) -> us n = false) ->
    Forall (fun c => exists e, reads (r_dets r) c e /\ clean p (names (f_dets f)) e = true) (r_conds r) ->
    r_dets (apply_with p f r) = r_dets r ++ map (ren p) (f_dets f) /\ narrowed r f (apply_with p f r).
Proof. exact meaning_with. Qed.
Print Assumptions C11_meaning_prefix_partial.

(* the text-level core: the regular-expression rewrite maps a spelling of the filter expression to a
   spelling of the renamed expression, and "(c) and (f)" spells the conjunction *)
Theorem C11_rewrite_spells :
  forall p c e fc ef, forallb is_wordc p = true -> Spells c e -> Spells fc ef -> plain ef = true ->
    Spells (new_cond c (rewrite p fc)) (EAnd e (rename p ef)).
Proof. exact spells_new_cond. Qed.
Print Assumptions C11_rewrite_spells.

(* a rule the filter does not target is returned as it is, and no draw is consumed *)
Theorem C11_untouched : forall draws f r, should_apply f r = false -> apply_on_rule draws f r = Some (r, draws).
Proof. exact untouched. Qed.
Print Assumptions C11_untouched.

(* STACKED FILTERS, whole collection (SigmaCollection.apply_filters: for every rule, fold apply_on_rule
   over all filters; one shared stream of draws of equal length, as random.choices(..., k=10) gives).
   If every rule is as in C11_meaning_partial (rule_ok) and every filter that targets it is as there
   (filter_ok), then every condition of every rule of the collection loads and its value is, for EVERY
   truth assignment to the detection objects, the value of the source condition AND the values of the
   conditions of exactly the filters that target the rule (stacked): the patterns a filter leaves in
   the condition never select the detections of a later filter, because the re-draw loop (repair of
   D16) keeps the prefixes distinct. *)
Theorem C11_collection_partial :
  forall L fs rs draws rs' rest,
    draws_ok L draws ->
    Forall (fun r => rule_ok r /\ Forall (fun f => should_apply f r = true -> filter_ok f) fs) rs ->
    apply_filters draws fs rs = Some (rs', rest) ->
    Forall2 (fun r r' => stacked r fs r') rs rs'.
Proof. exact collection_main. Qed.
Print Assumptions C11_collection_partial.

(* all other rules - those no filter targets, in particular every correlation rule - leave the
   collection exactly as they entered it *)
Theorem C11_collection_untouched :
  forall fs draws r, Forall (fun f => should_apply f r = false) fs -> apply_all draws fs r = Some (r, draws).
Proof. exact collection_untouched. Qed.
Print Assumptions C11_collection_untouched.

Theorem C11_correlation_never : forall r f, r_kind r = KCorrelation -> should_apply f r = false.
Proof. exact correlation_never. Qed.
Print Assumptions C11_correlation_never.

(* outside the premises - each witness is replayed against the real code (known_findings.json, C11) *)
(* D15: a rule pattern beginning with '_' ("not 1 of _*") captures the filter's detections *)
Theorem C11_underscore_capture_refuted :
  exists draws f r r' rest, should_apply f r = true /\ apply_on_rule draws f r = Some (r', rest) /\ ~ narrowed r f r'.
Proof. exact underscore_capture_refuted. Qed.
Print Assumptions C11_underscore_capture_refuted.

(* a filter detection named like a keyword ("Not") is not renamed in the condition: the rule's own "Not" is used *)
Theorem C11_keyword_name_refuted :
  exists draws f r r' rest, should_apply f r = true /\ apply_on_rule draws f r = Some (r', rest) /\ ~ narrowed r f r'.
Proof. exact keyword_name_refuted. Qed.
Print Assumptions C11_keyword_name_refuted.

(* a filter detection "_u" is not selected by the filter's "1 of them", but is after renaming *)
Theorem C11_underscore_filter_name_refuted :
  exists draws f r r' rest, should_apply f r = true /\ apply_on_rule draws f r = Some (r', rest) /\ ~ narrowed r f r'.
Proof. exact underscore_filter_name_refuted. Qed.
Print Assumptions C11_underscore_filter_name_refuted.

(* a rule condition with unbalanced parentheses ("a) or (b") has no value alone but one after the filter *)
Theorem C11_unbalanced_refuted :
  exists draws f r r' rest c c', should_apply f r = true /\ apply_on_rule draws f r = Some (r', rest) /\
    r_conds r = [c] /\ r_conds r' = [c'] /\
    (forall asgd, cond_value (r_dets r) c asgd = None) /\
    (forall asgd, exists z, cond_value (r_dets r') c' asgd = Some z).
Proof. exact unbalanced_refuted. Qed.
Print Assumptions C11_unbalanced_refuted.

(* non-vacuity: rule {sel, flt} " sel or 1 of fl*", filter {flt, sel} " not 1 of them" meet all premises *)
Example C11_premises_inhabited :
  should_apply ex_filter ex_rule = true /\
  Forall (fun d => lower_draw d = true) [draw_a] /\
  NoDup (names (f_dets ex_filter)) /\
  reads (f_dets ex_filter) (f_cond ex_filter) ex_ef /\ plain ex_ef = true /\
  (forall n, In n (names (f_dets ex_filter)) -> us n = false) /\
  Forall (fun c => exists e, reads (r_dets ex_rule) c e /\ no_us_patterns e = true) (r_conds ex_rule) /\
  exists r' rest, apply_on_rule [draw_a] ex_filter ex_rule = Some (r', rest).
Proof. exact premises_inhabited. Qed.
