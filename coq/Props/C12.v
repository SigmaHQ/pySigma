(* C12 - Each pipeline transformation equals its documented source-level rewrite.
   Only statements with Print Assumptions: the general theorems closed by `exact`, C12_identity_rule_conditions
   by rewriting with the hypothesis, C12_change_logsource by unfolding apply_tspec, the closed examples and
   the refutations by evaluation (their rules, scopes and events are defined at the end of
   Proofs/TransformP.v). *)
From Coq Require Import NArith List Bool.
From PS Require Import Base.Chars Model.SString Spec.Items Model.Transform Spec.Rewrite Proofs.SStringP Proofs.HashesP Proofs.TransformP
  Proofs.ReplaceP Proofs.AddCondP.
Import ListNotations.

(* The detection walk commutes with the entry-wise rewrite of the document: if every detection item the
   transformation touches is replaced by a tree that means what the documented rewrite of that entry
   means, the whole detection means what the rewritten document means - for trees of any size and
   nesting, every event (asg), every scope p. *)
Theorem C12_walk : forall asg p tr r,
  (forall i, p i = true -> sems asg (rep_list i (tr i)) = evals asg (opt_list (r i))) ->
  forall d, forall_items p d = true -> sem asg (walk_top tr d) = eval asg (subst_top r (doc_of d)).
Proof. exact walk_top_sem. Qed.
Print Assumptions C12_walk.

(* One processing item of any modelled type (field renaming 1:1 / 1:n / prefix / suffix / prefix mapping /
   keyword->field, drop, set_value, case, map_string, replace_string, convert_type, placeholders), any
   scope: every named detection of the transformed rule means what the rewritten document means. *)
Theorem C12_item : forall asg c t r, rule_sem_ok c t r = true ->
  meanings asg (apply_tspec c t r) = doc_meanings asg (rewrite_tspec c t (rdocs_of r)).
Proof. exact tspec_sem. Qed.
Print Assumptions C12_item.

(* chains and nested pipelines: the transformed rule IS the rewritten document *)
Theorem C12_pipeline_exact : forall ps r, pipeline_exact_ok ps r = true ->
  rdocs_of (apply_pipeline ps r) = rewrite_pipeline ps (rdocs_of r).
Proof. exact pipeline_exact. Qed.
Print Assumptions C12_pipeline_exact.

Theorem C12_pipeline : forall ps r, pipeline_ok ps r = true ->
  forall asg, meanings asg (apply_pipeline ps r) = doc_meanings asg (rewrite_pipeline ps (rdocs_of r)).
Proof. exact pipeline_sem. Qed.
Print Assumptions C12_pipeline.

(* keyword entries with modifiers keep substring semantics composed with the modifier (Spec.Rewrite.kw_value):
   '|all': [a, b*] with null -> [m, r] is any of [{m|contains|all: [a, b*]}, {r|contains|all: [a, b*]}] *)
Theorem C12_keyword_all :
  rdocs_of (apply_tspec no_conds (TFieldMap [(None, FMany [[109%N]; [114%N]])]) kwall_rule)
  = [([115%N], All [Any [Entry (mkI (Some [109%N]) [V (AStr false [PMulti; PStr [97%N]; PMulti]); V (AStr false [PMulti; PStr [98%N]; PMulti])] true false []);
                         Entry (mkI (Some [114%N]) [V (AStr false [PMulti; PStr [97%N]; PMulti]); V (AStr false [PMulti; PStr [98%N]; PMulti])] true false [])]])]
  /\ rdocs_of (apply_tspec no_conds (TFieldMap [(None, FMany [[109%N]; [114%N]])]) kwall_rule)
     = rewrite_tspec no_conds (TFieldMap [(None, FMany [[109%N]; [114%N]])]) (rdocs_of kwall_rule).
Proof. split; vm_compute; reflexivity. Qed.
Print Assumptions C12_keyword_all.

(* FULL STATEMENT for keyword -> field mapping (false of the faithful model, D28):
     forall asg c t r, meanings asg (apply_tspec c t r) = doc_meanings asg (rewrite_tspec c t (rdocs_of r))
   C12_item proves it on rule_sem_ok (keyword items mapped to a field carry no number and no value expansion);
   without the premise: *)
Theorem C12_keyword_number_refuted :
  exists asg c t r, meanings asg (apply_tspec c t r) <> doc_meanings asg (rewrite_tspec c t (rdocs_of r)).
Proof. exists asg_num, no_conds, (TFieldMap [(None, FOne [109%N])]), kwnum_rule. vm_compute. discriminate. Qed.
Print Assumptions C12_keyword_number_refuted.

(* one-to-many mapping of a negated item (D25, repaired in the code): inside C12_item's domain; the
   instance f|neq: v, f -> [a, b] spelled out *)
Theorem C12_onetomany_neq : forall asg,
  meanings asg (apply_tspec no_conds (TFieldMap [(Some [102%N], FMany [[97%N]; [98%N]])]) neq_rule)
  = [([115%N], Some (negb (asg (Some [97%N]) (AStr false [PStr [118%N]]) || asg (Some [98%N]) (AStr false [PStr [118%N]]))))].
Proof. intros asg. vm_compute. destruct (asg _ _); [reflexivity | destruct (asg _ _); reflexivity]. Qed.
Print Assumptions C12_onetomany_neq.

(* ---------- identity instances: a transformation configured to match nothing changes nothing ---------- *)
(* scope (detection item / field name conditions) that matches no detection item *)
Theorem C12_identity_scope : forall c t r, is_addcond t = false -> is_rule_level t = false -> afn_of t = None ->
  (forall i, im_of c i = false) -> apply_tspec c t r = r.
Proof. exact identity_scope. Qed.
Print Assumptions C12_identity_scope.

(* rule conditions that do not match *)
Theorem C12_identity_rule_conditions : forall c t r, c_rule c = false -> apply_item (c, t) r = r.
Proof. intros c t r H. unfold apply_item. cbn [fst]. rewrite H. reflexivity. Qed.
Print Assumptions C12_identity_rule_conditions.

(* field name mappings that map nothing (empty mapping, no prefix matches): every detection keeps its
   meaning (items holding field references in scope are still marked as processed), condition and fields
   list are unchanged *)
Theorem C12_identity_fieldmap : forall asg c afn r, (forall f, afn f = FNone) ->
  meanings asg (apply_fieldmap c afn r) = meanings asg r /\
  r_cond (apply_fieldmap c afn r) = r_cond r /\ r_fields (apply_fieldmap c afn r) = r_fields r.
Proof. exact identity_fieldmap. Qed.
Print Assumptions C12_identity_fieldmap.

(* value transformations that leave every value (empty map_string mapping, unknown placeholder filter) *)
Theorem C12_identity_values : forall c tv r, (forall f v, tv f v = None) -> apply_values c tv r = r.
Proof. exact identity_values. Qed.
Print Assumptions C12_identity_values.

(* FULL STATEMENT for replace_string (false of the faithful model, D10 / D30):
     forall asg c tbl r, (forall p, tbl_sub tbl p = p) -> meanings asg (apply_tspec c (TReplace tbl) r) = meanings asg r
   proved part: no value in scope is a number, and every string in scope survives the round trip through
   its plain form (replace_value_ok; fails exactly for a literal backslash directly before a wildcard) *)
Theorem C12_identity_replace_string_partial : forall asg c tbl r,
  (forall p, tbl_sub tbl p = p) -> rule_ok (item_sem_ok c (TReplace tbl)) r = true ->
  meanings asg (apply_tspec c (TReplace tbl) r) = meanings asg r.
Proof. exact identity_replace. Qed.
Print Assumptions C12_identity_replace_string_partial.

Theorem C12_identity_replace_string_refuted :
  exists asg c r, meanings asg (apply_tspec c (TReplace []) r) <> meanings asg r.
Proof. exists asg_wild, no_conds, bswild_rule. vm_compute. discriminate. Qed.
Print Assumptions C12_identity_replace_string_refuted.

Theorem C12_identity_replace_string_number_refuted :
  exists asg c r, meanings asg (apply_tspec c (TReplace []) r) <> meanings asg r.
Proof. exists asg_num, no_conds, num_rule. vm_compute. discriminate. Qed.
Print Assumptions C12_identity_replace_string_number_refuted.

(* the syntactic domain of the no-op instance: a value without placeholders in which no literal backslash
   stands directly before a wildcard comes back unchanged from a substitution that leaves its plain form alone *)
Theorem C12_replace_noop_roundtrip : forall sub l,
  rs_dom l = true -> contains_placeholder (canon l) = false ->
  sub (plain_items l) = plain_items l -> replace_sstring sub (canon l) = canon l.
Proof. exact replace_noop_roundtrip. Qed.
Print Assumptions C12_replace_noop_roundtrip.

(* ---------- add_condition ---------- *)
(* FULL STATEMENT: for every name. Proved for a fresh name (not defined in the rule, not referenced by the
   condition, matched by none of its selectors - which the drawn default name "_cond_..." is unless a
   selector pattern starts with "_"): the new condition `[not] name and (cond)` means the (negated) added
   detection AND the original condition evaluated in the original rule; m = meaning of the added
   detection, env = meanings of the rule's detections, selm = selector pattern matching. *)
Theorem C12_add_condition : forall selm (name : str) (m : option bool) (neg : bool) env c,
  fresh_env name env = true -> fresh_in selm name c = true ->
  ceval selm (dict_set name m env) (CAndE [(if neg then CNotE (CId name) else CId name); c])
  = comb true (opt_list (option_map (xorb neg) m) ++ opt_list (ceval selm env c)).
Proof. exact add_condition_sem. Qed.
Print Assumptions C12_add_condition.

(* an explicit name that a selector of the condition matches (`1 of them`) is captured; the hand-rewritten
   document has the same reading, so this is the boundary of the theorem, not a defect *)
Theorem C12_add_condition_captured_refuted :
  exists name m env c, fresh_env name env = true /\
    ceval (fun _ _ => true) (dict_set name m env) (CAndE [CId name; c])
    <> comb true (opt_list m ++ opt_list (ceval (fun _ _ => true) env c)).
Proof.
  exists [120%N], (Some true), [([115%N], Some false)], (CSel false [116%N]). split; [reflexivity | vm_compute; discriminate].
Qed.
Print Assumptions C12_add_condition_captured_refuted.

(* a later item scoped by processing_item_applied sees the marks of an earlier item also on the copies of a
   one-to-many mapping (repaired in the code): case (id A); f -> [x, y]; set_value 1 if A was applied *)
Theorem C12_chain_marks :
  pipeline_ok [PItem cA (TCase CUpper); PItem no_conds (TFieldMap [(Some [102%N], FMany [[120%N]; [121%N]])]);
               PItem cC (TSetValue (ANum [49%N]))] chain_rule = true /\
  rdocs_of (apply_pipeline [PItem cA (TCase CUpper); PItem no_conds (TFieldMap [(Some [102%N], FMany [[120%N]; [121%N]])]);
                            PItem cC (TSetValue (ANum [49%N]))] chain_rule)
  = [([115%N], All [Any [Entry (mkI (Some [120%N]) [V (ANum [49%N])] false false [[67%N]; [65%N]]);
                         Entry (mkI (Some [121%N]) [V (ANum [49%N])] false false [[67%N]; [65%N]])]])].
Proof. split; vm_compute; reflexivity. Qed.
Print Assumptions C12_chain_marks.

(* ---------- hashes_fields, extract_fields ---------- *)
(* grouping the hashes by dict insertion = the fields in the order of their first occurrence, each with all
   its values (also when the occurrences of a field are not adjacent); C12_item / C12_pipeline cover
   hashes_fields with this lemma, including all-linked and negated items (repaired, fix 0dde42a) *)
Theorem C12_hashes_grouping : forall pairs, dict_group pairs = spec_group pairs.
Proof. exact dict_group_spec. Qed.
Print Assumptions C12_hashes_grouping.

Theorem C12_hashes_interleaved :
  rdocs_of (apply_tspec no_conds (THashes hashes_cfg) hashes_rule)
  = [([115%N], All [Any [Entry (mkI (Some [70%N; 77%N; 68%N; 53%N]) [V (AStr false [PStr [97%N]]); V (AStr false [PStr [99%N]])] false false []);
                         Entry (mkI (Some [70%N; 83%N; 72%N; 65%N; 49%N]) [V (AStr false [PStr [98%N]])] false false [])]])].
Proof. vm_compute. reflexivity. Qed.
Print Assumptions C12_hashes_interleaved.

(* FULL STATEMENT for extract_fields fails for negated items (the new items are never negated, D34); C12_item
   proves it on rule_sem_ok (no negated item in scope is rewritten) *)
Theorem C12_extract_negated_refuted :
  exists asg c t r, meanings asg (apply_tspec c t r) <> doc_meanings asg (rewrite_tspec c t (rdocs_of r)).
Proof. exists (fun _ _ => true), no_conds, (TExtract xneg_cfg), xneg_rule. vm_compute. discriminate. Qed.
Print Assumptions C12_extract_negated_refuted.

(* ---------- rule-level attributes ---------- *)
(* change_logsource sets exactly the given attributes (omitted ones are cleared) and nothing else *)
Theorem C12_change_logsource : forall c c0 p s r,
  let r' := apply_tspec c (TChangeLogsource c0 p s) r in
  a_logsource (r_attrs r') = (c0, (p, s)) /\ r_dets r' = r_dets r /\ r_cond r' = r_cond r /\ r_fields r' = r_fields r /\
  a_custom (r_attrs r') = a_custom (r_attrs r) /\ a_state (r_attrs r') = a_state (r_attrs r).
Proof. cbn. repeat split. Qed.
Print Assumptions C12_change_logsource.

(* log source {category: pc, product: win}; change_logsource service: sys; field_name_prefix scoped by the rule
   condition logsource product: win does not apply any more *)
Theorem C12_change_logsource_follower :
  rules_consistent [PItem no_conds (TChangeLogsource None None (Some [115%N; 121%N; 115%N])); PItem c_win (TPrefix [119%N; 46%N])] ls_rule = true /\
  r_dets (apply_pipeline [PItem no_conds (TChangeLogsource None None (Some [115%N; 121%N; 115%N])); PItem c_win (TPrefix [119%N; 46%N])] ls_rule)
  = r_dets ls_rule.
Proof. split; vm_compute; reflexivity. Qed.
Print Assumptions C12_change_logsource_follower.

(* non-vacuity: the premises are met by a rule with a keyword list, a negated item and nested lists *)
Example C12_premises_inhabited :
  let r := mkR [([115%N], DD [DD [DI (mkI None [V (AStr false [PStr [107%N]])] false false [])] true;
                              DI (mkI (Some [102%N]) [V (AStr false [PStr [118%N]]); V ANull] true true [])] false)] [115%N] [] in
  pipeline_ok [PItem no_conds (TFieldMap [(None, FMany [[109%N]; [110%N]]); (Some [102%N], FMany [[97%N]; [98%N]])])] r = true /\
  pipeline_ok [PItem no_conds TDrop; PNest no_conds [(no_conds, TCase CUpper)]] r = true.
Proof. split; reflexivity. Qed.
