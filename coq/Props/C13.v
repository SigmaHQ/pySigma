(* C13 - A pipeline item acts exactly where its conditions hold.
   Statements, each closed by `exact`, with Print Assumptions; the two non-vacuity examples at the end are proved
   here, by the constructors of the grammar and by evaluation. *)
From Coq Require Import NArith ZArith List Bool.
From PS Require Import Base.Chars Base.Outcome Model.PipeExpr Model.PipeCond Spec.PipeSpec
     Proofs.PipeExprP Proofs.PipeCondP Proofs.PipeStepP.
Import ListNotations.

(* ---- condition expressions --------------------------------------------------------------- *)
(* every token list of the documented expression language (identifiers over [A-Za-z0-9_-] other than the
   keywords, parentheses, prefix not, left-associative and / or, binding in this order), written as text
   with one blank after each token (`unlex`; no other spacing is covered), is accepted by
   parse_condition_expression and parsed to the tree it spells *)
Theorem C13_expr_parse :
  forall ts e, Forall tok_ok ts -> SOr ts e -> parse_expr (unlex ts) = Some e.
Proof. exact parse_expr_complete. Qed.
Print Assumptions C13_expr_parse.

(* the evaluator (match / match_detection_item / match_field_name of the expression classes)
   computes the boolean meaning of the tree whenever the referenced conditions have a truth value *)
Theorem C13_expr_eval :
  forall env benv e, (forall w, In w (ids e) -> env w = Ok (benv w)) -> eval_ex env e = Ok (den benv e).
Proof. exact eval_den. Qed.
Print Assumptions C13_expr_eval.

(* ---- _check_conditions / _resolve_condition_expression ---------------------------------- *)
(* an accepted configuration is read as: default linking "and", a mapping without expression becomes
   the list of its values in order; with an expression: no linking, a mapping, every identifier
   defined and every condition referenced.  Everything else is a SigmaConfigurationError. *)
Theorem C13_check_conditions :
  forall (g : rgroup rcond) n, build_group g = Ok n ->
  n_neg n = g_neg g /\
  match g_expr g with
  | None => n_conds n = form_conds (g_form g) /\
            n_mode n = MLink (match g_link g with Some l => l | None => LAnd end)
  | Some s => exists e m, parse_expr s = Some e /\ g_link g = None /\ g_form g = CMap m /\
                          n_conds n = m /\ n_mode n = MExpr e /\
                          (forall i, In i (ids e) -> assoc i m <> None) /\
                          (forall kv, In kv m -> In (fst kv) (ids e))
  end.
Proof. exact (@build_group_spec rcond). Qed.
Print Assumptions C13_check_conditions.

(* ---- the three gates ----------------------------------------------------------------------
   group_eval: a group without conditions holds; otherwise negation flag xor (all / any of the
   conditions | meaning of the expression); it has a truth value iff every condition has one.
   For every kind of condition, every linking, negation flag and expression: *)
Theorem C13_gate :
  forall (C : Type) (ev : C -> outcome bool) (g : ngroup C) b,
    wf_ngroup g -> (gate ev g = Ok b <-> group_eval ev g = Ok b).
Proof. exact (@gate_spec). Qed.
Print Assumptions C13_gate.

(* "an item without conditions always applies", for each of the three groups *)
Theorem C13_no_conditions :
  forall (C : Type) (ev : C -> outcome bool) (g : ngroup C), wf_ngroup g -> n_conds g = [] -> gate ev g = Ok true.
Proof. exact (@empty_group_always). Qed.
Print Assumptions C13_no_conditions.

Theorem C13_rule_gate :
  forall it w b, wf_ngroup (i_rule it) -> (match_rule_conditions it w = Ok b <-> applies_rule it w = Ok b).
Proof. exact rule_gate. Qed.
Print Assumptions C13_rule_gate.

Theorem C13_detitem_gate :
  forall it T ps d b, wf_ngroup (i_det it) -> wf_ngroup (i_field it) ->
    (match_detection_item it ps d = Ok b <-> applies_item it T ps d = Ok b).
Proof. exact detitem_gate. Qed.
Print Assumptions C13_detitem_gate.

(* the by-name bookkeeping is only trusted where it agrees with the history (see C13_history_field_refuted) *)
Theorem C13_field_gate :
  forall it T ps f b, wf_ngroup (i_field it) -> (no_fapplied (i_field it) \/ ghost_agrees T ps) ->
    (match_field_name it ps f = Ok b <-> applies_field it T ps f = Ok b).
Proof. exact field_gate. Qed.
Print Assumptions C13_field_gate.

(* ---- declarative meaning of the searching / shortcutting condition classes ---------------- *)
Theorem C13_cond_logsource :
  forall c p s w, rcond_eval w (RLogsource c p s) = Ok true <-> logsource_spec c p s (r_ls (w_rule w)).
Proof. exact logsource_meaning. Qed.
Print Assumptions C13_cond_logsource.

Theorem C13_cond_contains_field :
  forall f w, rcond_eval w (RContainsField f) = Ok true <-> contains_field_spec f (w_rule w).
Proof. exact contains_field_meaning. Qed.
Print Assumptions C13_cond_contains_field.

Theorem C13_cond_contains_item :
  forall f v w, rcond_eval w (RContainsItem f v) = Ok true <-> contains_item_spec f v (w_rule w).
Proof. exact contains_item_meaning. Qed.
Print Assumptions C13_cond_contains_item.

(* ---- history -------------------------------------------------------------------------------
   after running any list of items, processing_item_applied(id) holds on the rule iff it held before
   or some item with that id met its rule conditions at its turn *)
Theorem C13_history_rule :
  forall its w snaps err id, run its w = (snaps, err) ->
    (In id (r_applied (w_rule (final w snaps))) <-> In id (r_applied (w_rule w)) \/ In id (fired its w)).
Proof. exact history_rule. Qed.
Print Assumptions C13_history_rule.

Theorem C13_history_fired :
  forall its w id, In id (fired its w) <->
    exists pre it post wk w', its = pre ++ it :: post /\ reaches pre w wk /\ i_id it = id /\
                              step it wk = Ok (w', true).
Proof. exact fired_spec. Qed.
Print Assumptions C13_history_fired.

(* ---- the step: the transformation acts exactly where the item applies ----------------------
   FULL STATEMENT (false of the faithful model): for all items and states, one step of the model
   (ProcessingItem.apply: rule gate, then the transformation's loops over the fields list, the
   detection items, their field references and fields, calling the gates, marking what was touched)
   is the step of the specification sp_step: every target carries the effect iff the item applies to
   it on the state before the item; applied sets grow by exactly the item's id on exactly the
   targets that were changed; copies inherit history.
   Proved part: items that do not gate a field-name transformation by the field-name condition
   processing_item_applied (1:1 and 1:n mappings included). *)
Theorem C13_step_partial :
  forall it T w w' b,
    wf_ngroup (i_rule it) -> wf_ngroup (i_det it) -> wf_ngroup (i_field it) ->
    tracking_safe it = true ->
    step it w = Ok (w', b) ->
    exists ws T', sp_step it T w = Ok (ws, b, T') /\ same_obs ws w'.
Proof. exact step_meets_spec. Qed.
Print Assumptions C13_step_partial.

(* outside that domain the statement is refuted: *)
(* the field-name condition processing_item_applied does not see the items applied to a detection
   item's field *)
Theorem C13_history_field_refuted :
  exists it1 it2 w w1 w2 w2' T1 T2,
    has_fapplied (i_field it2) = true /\
    step it1 w = Ok (w1, true) /\ sp_step it1 [] w = Ok (w1, true, T1) /\
    step it2 w1 = Ok (w2, true) /\ sp_step it2 T1 w1 = Ok (w2', true, T2) /\
    r_dets (w_rule w2) <> r_dets (w_rule w2').
Proof. exact field_history_lost. Qed.
Print Assumptions C13_history_field_refuted.

(* non-vacuity: the grammar and the well-formedness premise are inhabited by non-trivial objects *)
Example C13_premises_inhabited :
  SOr [TW [97]; TW w_and; TW w_not; TL; TW [98]; TW w_or; TW [99]; TR]
      (EAnd (EId [97]) (ENot (EOr (EId [98]) (EId [99])))) /\
  wf_ngroup {| n_conds := [([97], RIsRule); ([98], RIsCorr)]; n_mode := MExpr (EAnd (EId [97]) (ENot (EId [98])));
               n_neg := true |}.
Proof.
  split.
  - apply so_and. apply (sd_and [TW [97]] (EId [97]) [TW w_not; TL; TW [98]; TW w_or; TW [99]; TR]).
    + apply sd_not, sn_atom, sa_id. reflexivity.
    + apply sn_not, sn_atom. apply (sa_par [TW [98]; TW w_or; TW [99]]).
      apply (so_or [TW [98]] (EId [98]) [TW [99]]).
      * apply so_and, sd_not, sn_atom, sa_id. reflexivity.
      * apply sd_not, sn_atom, sa_id. reflexivity.
  - unfold wf_ngroup. simpl. repeat split.
    + intros i [<-|[<-|[]]]; vm_compute; discriminate.
    + intros kv [<-|[<-|[]]]; simpl; auto.
    + repeat constructor; simpl; intuition discriminate.
Qed.

(* non-vacuity of C13_step_partial: a field-name transformation gated by two groups, applied to a rule
   with two detection items, satisfies every premise, and the step changes exactly one of them *)
Definition ex_item : item :=
  {| i_id := [109]; i_tr := TSuffix [95; 83];
     i_rule := {| n_conds := [([], RIsRule)]; n_mode := MLink LOr; n_neg := false |};
     i_det := {| n_conds := []; n_mode := MLink LAnd; n_neg := false |};
     i_field := {| n_conds := [([120], FInclude [[97]]); ([121], FState [107] (SNum (NInt 1)) OEq)];
                   n_mode := MExpr (EAnd (EId [120]) (ENot (EId [121]))); n_neg := false |} |}.
Example C13_step_inhabited :
  wf_ngroup (i_rule ex_item) /\ wf_ngroup (i_det ex_item) /\ wf_ngroup (i_field ex_item) /\
  tracking_safe ex_item = true /\
  exists w', step ex_item (world1 [[97]] [leaf [97] [VStr [120]]; leaf [98] [VNum 1%Z]]) = Ok (w', true) /\
             r_fields (w_rule w') = [[97; 95; 83]] /\
             r_dets (w_rule w') = [([115], DNode [DLeaf {| d_field := Some [97; 95; 83]; d_vals := [VStr [120]]; d_applied := [[109]] |};
                                                 leaf [98] [VNum 1%Z]])].
Proof.
  repeat split; try exact I.
  - intros i [<-|[<-|[]]]; vm_compute; discriminate.
  - intros kv [<-|[<-|[]]]; simpl; auto.
  - repeat constructor; simpl; intuition discriminate.
  - eexists. split; [vm_compute; reflexivity|]. split; reflexivity.
Qed.
