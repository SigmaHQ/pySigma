(* C14 - Pipelines compose in a defined order: priority, then stage, then position.
   Model: Model.Pipeline (heap of pipeline / item objects with the item -> owner back-pointer);
   specification: Spec.AbsPipeline (a pipeline IS items, post-processing items, finalizers, vars). *)
From Coq Require Import NArith ZArith List Bool Permutation Sorting.Sorted.
From PS Require Import Base.Chars Base.Outcome Spec.AbsPipeline Model.Pipeline Proofs.PipelineP Proofs.HistoryP.
Import ListNotations.
Open Scope N_scope.

(* p + q IS the concatenation: transformations, post-processing items and finalizers of p followed by
   q's, vars merged with q's values winning; and the sum owns every object it contains - whatever
   the operands were used for before (any heap h) *)
Theorem C14_refines_concat : forall h p q h' s,
  add h p q = (h', Ok s) -> abs h' s = aplus (abs h p) (abs h q) /\ owned h' s.
Proof. exact add_abs_owned. Qed.
Print Assumptions C14_refines_concat.

(* exact domain of +: it raises (SigmaProcessingItemError / SigmaTransformationError) iff some item,
   post-processing item or finalizer object would occur twice in the concatenation (p + p) *)
Theorem C14_add_defined : forall h p q,
  snd (add h p q) =
  match first_dup [] (tagged (p_items p ++ p_items q) (p_post p ++ p_post q) (p_fin p ++ p_fin q)) with
  | None => Ok {| p_id := h_next h; p_items := p_items p ++ p_items q; p_post := p_post p ++ p_post q;
                  p_fin := p_fin p ++ p_fin q; p_prio := 0%Z; p_name := None |}
  | Some t => SigmaErr t
  end.
Proof. exact add_defined. Qed.
Print Assumptions C14_add_defined.

(* variables of the later pipeline override those of the earlier one *)
Theorem C14_vars_override : forall k p q, dict_ok (a_vars q) ->
  lookup k (a_vars (aplus p q)) = match lookup k (a_vars q) with Some v => Some v | None => lookup k (a_vars p) end.
Proof. intros k p q. exact (lookup_dmerge k (a_vars p) (a_vars q)). Qed.
Print Assumptions C14_vars_override.

(* every bracketing of + over a sequence of pipelines is the flat concatenation of that sequence;
   the variable map is "last definition wins" over the sequence. The right-hand sides mention only
   `leaves e`, so two bracketings of the same sequence agree: associativity *)
Theorem C14_bracketing : forall e h h' s,
  wf_heap h -> (forall p, In p (leaves e) -> valid h p) -> eval h e = (h', Ok s) ->
  p_items s = flat_map p_items (leaves e) /\ p_post s = flat_map p_post (leaves e) /\
  p_fin s = flat_map p_fin (leaves e) /\
  (forall k, lookup k (h_vars h' (p_id s)) = vars_lookup k (map (fun p => h_vars h (p_id p)) (leaves e))) /\
  valid h' s /\ match e with Leaf _ => True | Plus _ _ => owned h' s end.
Proof. exact eval_flat. Qed.
Print Assumptions C14_bracketing.

Theorem C14_assoc : forall h p q r h1 s1 h2 s2, wf_heap h -> valid h p -> valid h q -> valid h r ->
  eval h (Plus (Plus (Leaf p) (Leaf q)) (Leaf r)) = (h1, Ok s1) ->
  eval h (Plus (Leaf p) (Plus (Leaf q) (Leaf r))) = (h2, Ok s2) ->
  aeq (abs h1 s1) (abs h2 s2).
Proof. exact assoc3. Qed.
Print Assumptions C14_assoc.

(* the empty pipeline is the identity; `p + None` and `0 + p` (sum) are p itself *)
Theorem C14_identity : forall h p e h' s,
  p_items e = [] -> p_post e = [] -> p_fin e = [] -> h_vars h (p_id e) = [] -> dict_ok (h_vars h (p_id p)) ->
  (add h p e = (h', Ok s) -> abs h' s = abs h p) /\
  (add h e p = (h', Ok s) -> aeq (abs h' s) (abs h p)) /\
  add_opt h p None = (h, Ok p) /\ psum h [p] = (h, Ok p).
Proof. exact identity_all. Qed.
Print Assumptions C14_identity.

(* the resolver table maps identifiers (unrelated to the pipelines' `name`) to registered objects or
   to callables / YAML files that yield a fresh pipeline per resolution.  For EVERY table, naming the
   entries in any order combines the same entries in the same order: the stable ascending
   (priority, identifier) order of the entries *)
Theorem C14_resolver_entries_perm : forall (t : list (str * rent ppl)) specs specs',
  Permutation specs specs' -> NoDup specs ->
  resolve_order tab_nm ent_prio t specs = resolve_order tab_nm ent_prio t specs'.
Proof. intros t specs specs' HP _. exact (resolve_order_perm tab_nm ent_prio t _ _ HP). Qed.
Print Assumptions C14_resolver_entries_perm.

(* on tables of registered objects that is the identical result - same heap, same pipeline object
   contents, same error - for every order in which they are named *)
Theorem C14_resolver_perm : forall h c t specs specs', objs_only t ->
  Permutation specs specs' -> NoDup specs -> resolve h c t specs = resolve h c t specs'.
Proof. intros h c t specs specs' O HP _. exact (resolve_perm h c t _ _ O HP). Qed.
Print Assumptions C14_resolver_perm.

(* what that order is: a permutation of the named entries, ascending in (priority, identifier), and
   entries the order does not separate stay in argument order (stability) *)
Theorem C14_resolver_order : forall (t : list (str * rent ppl)) specs l, resolve_all tab_nm t specs = Some l ->
  exists s, resolve_order tab_nm ent_prio t specs = Some (map fst s) /\ Permutation s l /\
    StronglySorted (fun a b => key_leb (info_key ent_prio a) (info_key ent_prio b) = true) s /\
    forall z, filter (eqv (info_leb ent_prio) z) s = filter (eqv (info_leb ent_prio) z) l.
Proof. exact (resolve_order_spec tab_nm ent_prio). Qed.
Print Assumptions C14_resolver_order.

(* ... and the resolved pipeline is the concatenation in that order *)
Theorem C14_resolver_concat : forall h c t specs l h' c' s,
  wf_heap h -> objs_only t -> (forall e, In e t -> valid h (ent_ppl e)) ->
  resolve_order tab_nm ent_prio t specs = Some l -> l <> [] -> resolve h c t specs = ((h', c'), Ok s) ->
  p_items s = flat_map p_items (map ent_ppl l) /\ p_post s = flat_map p_post (map ent_ppl l) /\
  p_fin s = flat_map p_fin (map ent_ppl l) /\
  (forall k, lookup k (h_vars h' (p_id s)) = vars_lookup k (map (fun p => h_vars h (p_id p)) (map ent_ppl l))).
Proof. intros h c t specs l h' c' s W O V E _. exact (resolve_flat h c t specs l h' c' s W O V E). Qed.
Print Assumptions C14_resolver_concat.

(* tables with callables / YAML files (no callable with a memory): the pipelines that resolve()
   sums - Model.Pipeline.resolve: psum over map fst (isort (info_leb p_prio) infos) - are, one by one
   and in this order, the entries of the permutation-invariant (priority, identifier) order of
   C14_resolver_entries_perm: the registered object itself, or a fresh pipeline with the content of
   the callable's / file's definition *)
Theorem C14_resolver_instances : forall h c t specs l hc infos, no_seq t ->
  resolve_all tab_nm t specs = Some l -> minst_all h c l = (hc, Ok infos) ->
  Forall2 inst_of (map fst (isort (info_leb ent_prio) l)) (map fst (isort (info_leb p_prio) infos)).
Proof. exact resolve_instances. Qed.
Print Assumptions C14_resolver_instances.

(* FULL STATEMENT (false of the faithful model, see C14_reuse_refuted):
     forall h f p rules, snd (m_run h f p rules) = abs_run f (abs h p) rules
   i.e. a pipeline converts every rule list like the abstract pipeline it denotes, in every history.
   Proved part: exactly the histories in which the pipeline (still) owns all its objects - which
   C14_refines_concat establishes for every sum at the moment it is built. *)
Theorem C14_behaviour_partial : forall h f p rules,
  owned h p -> snd (m_run h f p rules) = abs_run f (abs h p) rules.
Proof. exact behaviour. Qed.
Print Assumptions C14_behaviour_partial.

(* the history clause: after s = p + q, p's items are owned by s; a further addition p + r re-owns
   them, and s no longer converts like p's items followed by q's (defect D18) *)
Theorem C14_reuse_refuted :
  exists h p q r s t rules,
    owned h p /\ owned h q /\ owned h r /\
    snd (add h p q) = Ok s /\ snd (add (fst (add h p q)) p r) = Ok t /\
    snd (m_run (fst (add h p q)) FState s rules) = abs_run FState (abs (fst (add h p q)) s) rules /\
    snd (m_run (fst (add (fst (add h p q)) p r)) FState s rules)
      <> abs_run FState (abs (fst (add (fst (add h p q)) p r)) s) rules.
Proof. exact reuse_refuted. Qed.
Print Assumptions C14_reuse_refuted.

(* a backend runs its own pipeline, then the user's, then the output-format pipeline; abs_run is
   transformations (item order) -> conversion -> post-processing of every emitted query (item
   order) -> finalizers once on the whole output (in order) *)
Theorem C14_stage_order : forall h f bk user outf h' s rules, valid h outf ->
  init h f bk user outf = (h', Ok s) ->
  snd (m_run h' f s rules) =
  abs_run f (with_backend_vars f (aplus (match user with Some u => aplus (abs h bk) (abs h u) | None => abs h bk end)
                                        (abs h outf))) rules.
Proof. exact stage_order. Qed.
Print Assumptions C14_stage_order.

(* histories on two backend objects of one class.  FULL STATEMENT (false, see C14_history_refuted and
   C14_history_format_refuted): the premise `snd (mexec ...) = true` dropped, i.e. every history of
   API calls (bracketings of +, sums, resolver calls, init_processing_pipeline / convert() /
   convert_rule() with the output format and the user pipeline chosen per call, operands fresh or
   used) shows what the value-only specification of that history shows: every conversion runs the
   backend's pipeline, then the user pipeline the backend object currently has, then the output-format
   pipeline OF THE FORMAT REQUESTED BY THAT CALL, in the stage order of abs_run.
   Proved part: the histories in which the initial objects are distinct, the resolver table holds
   registered objects (`tn_objs`; callables / files are covered by the correspondence only) and every
   convert_rule() on an already initialised backend object finds a pipeline that still owns its
   objects and was built for the requested format (second component of mexec).  Backend.convert()
   re-initialises and therefore always qualifies - for every sequence of formats and user pipelines. *)
Theorem C14_history_partial : forall defs tn bkd od ot os rules prog h0 l,
  tn_objs tn ->
  mk_defs h_empty (defs ++ [bkd; od; ot; os]) = (h0, Ok l) ->
  snd (mexec defs tn bkd od ot os rules prog) = true ->
  fst (mexec defs tn bkd od ot os rules prog)
  = aexec (map adef defs) tn (apipe_of bkd) (by_fmt (apipe_of od) (apipe_of ot) (apipe_of os)) rules prog.
Proof. exact history_sound. Qed.
Print Assumptions C14_history_partial.

(* D18: a later addition re-owns the items *)
Theorem C14_history_refuted :
  exists defs tn bkd od ot os rules prog l,
    tn_objs tn /\ snd (mk_defs h_empty (defs ++ [bkd; od; ot; os])) = Ok l /\
    snd (mexec defs tn bkd od ot os rules prog) = false /\
    fst (mexec defs tn bkd od ot os rules prog)
    <> aexec (map adef defs) tn (apipe_of bkd) (by_fmt (apipe_of od) (apipe_of ot) (apipe_of os)) rules prog.
Proof. exact history_refuted. Qed.
Print Assumptions C14_history_refuted.

(* D30: convert_rule() for another format keeps the pipeline built for the earlier one
   (witness: convert(test) then convert_rule(state)) *)
Theorem C14_history_format_refuted :
  exists defs tn bkd od ot os rules prog l,
    tn_objs tn /\ snd (mk_defs h_empty (defs ++ [bkd; od; ot; os])) = Ok l /\
    snd (mexec defs tn bkd od ot os rules prog) = false /\
    fst (mexec defs tn bkd od ot os rules prog)
    <> aexec (map adef defs) tn (apipe_of bkd) (by_fmt (apipe_of od) (apipe_of ot) (apipe_of os)) rules prog.
Proof. exact history_format_refuted. Qed.
Print Assumptions C14_history_format_refuted.

(* non-vacuity: the premises are met by concrete pipelines, and a sum that is defined *)
Example C14_premises_inhabited :
  wf_heap w_h0 /\ valid w_h0 w_p /\ valid w_h0 w_q /\ owned w_h0 w_p /\
  snd (add w_h0 w_p w_q) = Ok w_s /\ owned (fst (add w_h0 w_p w_q)) w_s.
Proof. exact premises_inhabited. Qed.
Example C14_history_premises_inhabited :
  exists l, snd (mk_defs h_empty ([w_defA; w_defE (Some [98])] ++ [w_defE None; w_defE None; w_defE None; w_defE None])) = Ok l /\
  snd (mexec [w_defA; w_defE (Some [98])] [] (w_defE None) (w_defE None) (w_defE None) (w_defE None) w_rules w_prog_fresh) = true /\
  exists r, fst (mexec [w_defA; w_defE (Some [98])] [] (w_defE None) (w_defE None) (w_defE None) (w_defE None) w_rules w_prog_fresh) = Ok r.
Proof. exact history_inhabited. Qed.
