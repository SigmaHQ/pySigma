(* C15 - converting a rule gives the same result whatever was converted before.
   Only statements, each closed by `exact`, with Print Assumptions.

   World = parse cache + type-hint cache + backend class templates + value cache of every
   external-source transformation object + owner link of every
   processing item object + per-rule fields and vars dict of every pipeline object + state and applied
   ids of the nested pipeline of every `nest` item + backends (Model/History.v).
   A history is any list of operations {load, new backend, init pipeline, convert collection,
   convert rule}; failing conversions are conversions of rules that fail (at the pipeline, in the
   condition parser, at an undefined identifier, in an external source (security check, fetch, parse),
   while rendering, while rendering inside a negated not-equals leaf - Sigma errors and backend
   NotImplementedError).  `ideal_obs_*` (Spec/Frame.v) is a function of the rule, the pipeline
   definitions and the backend configuration only. *)
From Coq Require Import NArith List Bool String.
From PS Require Import Base.Chars Base.Outcome Model.History Spec.Frame Proofs.History15P Proofs.HistoryRefP Proofs.HistorySharingP.
Import ListNotations.

(* convert(collection) after ANY history, on ANY backend of that history - shared pipeline objects
   or not - yields queries, errors, collected errors and pipeline bookkeeping that are a function of
   the rules, the pipeline definitions and the backend configuration alone *)
Theorem C15_frame_collection : forall E ops b bk fmt rs,
  let w := fst (run E init ops) in
  nth_error (w_bks w) b = Some bk ->
  out_obs (snd (step E w (OConvColl b rs fmt))) = ideal_obs_coll E (b_cls bk) (b_user bk) (b_collect bk) (b_opts bk) fmt rs.
Proof. exact (fun E ops b bk fmt rs => frame_coll E _ b bk fmt rs (proj1 (reachable_good E ops))). Qed.
Print Assumptions C15_frame_collection.

(* FULL STATEMENT for convert_rule (false of the faithful model, see the two refutations):
     forall E ops b bk fmt r, nth_error (w_bks (fst (run E init ops))) b = Some bk ->
       out_obs (snd (step E _ (OConvRule b r fmt))) = ideal_obs_rule E (b_cls bk) (b_user bk) (b_collect bk) (b_opts bk) fmt r
   proved part: the items of the backend's pipeline object still point to that object (no later
   init of another backend took them over) and the object was built for the format asked for *)
Theorem C15_frame_rule_partial : forall E ops b bk fmt r,
  let w := fst (run E init ops) in
  nth_error (w_bks w) b = Some bk -> owns_ok E w bk = true -> fmt_ok bk fmt = true ->
  out_obs (snd (step E w (OConvRule b r fmt))) = ideal_obs_rule E (b_cls bk) (b_user bk) (b_collect bk) (b_opts bk) fmt r.
Proof. exact (fun E ops b bk fmt r => frame_rule E _ b bk fmt r (proj1 (reachable_good E ops)) (proj1 (proj2 (reachable_good E ops)))). Qed.
Print Assumptions C15_frame_rule_partial.

(* the same under a condition that can be read off the history: no two backends were created from
   item objects that exist only once (same class with class-level pipeline items for one of the
   formats in use, or the same non-empty user pipeline object) *)
Theorem C15_frame : forall E fmts ops b bk fmt r,
  no_sharing E fmts ops = true -> forallb (op_fmt_ok fmts) ops = true ->
  let w := fst (run E init ops) in
  nth_error (w_bks w) b = Some bk -> fmt_ok bk fmt = true ->
  out_obs (snd (step E w (OConvRule b r fmt))) = ideal_obs_rule E (b_cls bk) (b_user bk) (b_collect bk) (b_opts bk) fmt r.
Proof. exact frame_rule_no_sharing. Qed.
Print Assumptions C15_frame.

Theorem C15_no_sharing_owns : forall E fmts ops,
  no_sharing E fmts ops = true -> forallb (op_fmt_ok fmts) ops = true ->
  forall b bk, nth_error (w_bks (fst (run E init ops))) b = Some bk -> owns_ok E (fst (run E init ops)) bk = true.
Proof. exact no_sharing_owns. Qed.
Print Assumptions C15_no_sharing_owns.

(* the form the correspondence check evaluates on the real code: after the history = in a world
   where nothing happened but the creation of one backend with the same configuration *)
Theorem C15_fresh_rule_partial : forall E ops b bk fmt r,
  let w := fst (run E init ops) in
  nth_error (w_bks w) b = Some bk -> owns_ok E w bk = true -> fmt_ok bk fmt = true ->
  out_obs (snd (step E w (OConvRule b r fmt))) = out_obs (snd (step E (fresh_world E bk) (OConvRule 0 r fmt))).
Proof. exact fresh_rule. Qed.
Print Assumptions C15_fresh_rule_partial.

Theorem C15_fresh_collection : forall E ops b bk fmt rs,
  let w := fst (run E init ops) in
  nth_error (w_bks w) b = Some bk ->
  out_obs (snd (step E w (OConvColl b rs fmt))) = out_obs (snd (step E (fresh_world E bk) (OConvColl 0 rs fmt))).
Proof. exact fresh_coll. Qed.
Print Assumptions C15_fresh_collection.

(* after every history - including conversions that raised at any stage, also inside a negated
   not-equals leaf, and conversions during which an external source was denied, could not be
   fetched or could not be parsed - the class templates are the original ones, every cached parse is
   what the grammar yields for its key (nothing a rule did to its copy is visible to the next rule),
   and a value list cached by an external-source transformation object is exactly what its source
   yields: a failed fetch / parse leaves no cache entry behind; the variables of a backend's pipeline
   object are the merged definitions plus THIS backend's options (nothing of another backend); the nested pipeline
   object of every `nest` postprocessing item is untouched again (no state, nothing applied) *)
Theorem C15_state_restored : forall E ops,
  let w := fst (run E init ops) in
  (forall c, w_tpl w c = tpl0) /\ (forall k t, lookup k (w_cache w) = Some t -> e_parse E k = Some t) /\
  (forall i it d v, w_vc w i = Some v -> valid_pair E i it -> i_tr it = TFile d -> e_src E d = Ok v) /\
  (forall b bk L f, nth_error (w_bks w) b = Some bk -> b_last bk = Some (L, f) ->
     w_pvars w L = init_vars E (b_cls bk) (b_user bk) (b_opts bk) f) /\
  (forall i, w_nest w i = ([], [])).
Proof. exact state_restored. Qed.
Print Assumptions C15_state_restored.

(* loading a document after any history type-checks every modifier application against the annotation of the
   modifier's OWN class (also for a registered subclass of a built-in modifier with a wider value type, whatever was
   loaded before): the type-hint cache only ever holds, under a class, that class's own annotation *)
Theorem C15_load_frame : forall E ops r,
  let w := fst (run E init ops) in
  o_res (out_obs (snd (step E w (OLoad r)))) = ideal_load E r /\
  (forall e, In e (w_hints w) -> snd e = fst e).
Proof. exact reachable_load. Qed.
Print Assumptions C15_load_frame.

(* D18: init A, init B on the same user pipeline object, then A.convert_rule: index=default *)
Theorem C15_reown_refuted :
  exists E ops b bk fmt r,
    let w := fst (run E init ops) in
    nth_error (w_bks w) b = Some bk /\ fmt_ok bk fmt = true /\ owns_ok E w bk = false /\
    o_res (out_obs (snd (step E w (OConvRule b r fmt)))) = Ok [lit "index=default (fieldC=1)"] /\
    o_res (ideal_obs_rule E (b_cls bk) (b_user bk) (b_collect bk) (b_opts bk) fmt r) = Ok [lit "index=win (fieldC=1)"].
Proof. exact reown_refuted. Qed.
Print Assumptions C15_reown_refuted.

(* D30: convert(..., format 1) then convert_rule(..., format 2): the format-1 pipeline is reused *)
Theorem C15_stale_format_refuted :
  exists E ops b bk fmt r,
    let w := fst (run E init ops) in
    nth_error (w_bks w) b = Some bk /\ owns_ok E w bk = true /\ fmt_ok bk fmt = false /\
    o_res (out_obs (snd (step E w (OConvRule b r fmt)))) = Ok [lit "index=default (mappedC=1)"] /\
    o_res (ideal_obs_rule E (b_cls bk) (b_user bk) (b_collect bk) (b_opts bk) fmt r) = Ok [lit "index=default (fieldC=1)"].
Proof. exact stale_format_refuted. Qed.
Print Assumptions C15_stale_format_refuted.

(* non-vacuity: a history with a conversion and a load after which the premises hold for a backend
   that already has a pipeline object *)
Example C15_premises_inhabited :
  let w := fst (run E_wit init [ONew 0 (Some 0%N) false []; OConvRule 0%nat r_win 2; OLoad r_win]) in
  exists bk, nth_error (w_bks w) 0 = Some bk /\ owns_ok E_wit w bk = true /\ fmt_ok bk 2 = true /\
             b_last bk <> None.
Proof. exact premises_inhabited. Qed.

(* ... and so is the syntactic premise, by a history with two backends that are both initialised *)
Example C15_no_sharing_inhabited :
  let ops := [ONew 0 (Some 0%N) false []; ONew 0 None true []; OInit 0%nat 2; OInit 1%nat 2; OConvRule 0%nat r_win 2] in
  no_sharing E_wit [0%N; 1%N; 2%N] ops = true /\ forallb (op_fmt_ok [0%N; 1%N; 2%N]) ops = true.
Proof. split; reflexivity. Qed.
