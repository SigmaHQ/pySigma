(* C16 - A pipeline file cannot grant itself code execution, file or network access.
   Only statements, each closed by `exact`, with Print Assumptions.

   Vocabulary (Model/Security.v, Spec/Security.v):
     load_dict E d a        ProcessingPipeline.from_dict(d, allow_template_vars, vars_allowed_paths,
                            allow_external_sources) in environment E; returns (outcome tree, effect trace)
     load_yaml / load_resolver   from_yaml(.., source_path) and ProcessingPipelineResolver.resolve_pipeline(file)
     convert E t phs        Backend.convert of one rule whose values carry the placeholders phs
     effects                ERead path | ERun cmd | ENet url | EExec (real location of a vars file)
     env_on                 the gates' reading of PYSIGMA_ALLOW_EXTERNAL_SOURCES / PYSIGMA_ALLOW_VARS_EXECUTION
   All theorems quantify over every document d : yv (any keys, any nesting depth, any ill-typed value) and every
   environment E (variables, realpath oracle, which files/commands work). *)
From Coq Require Import String.
From Coq Require Import NArith ZArith List Bool.
From PS Require Import Base.Chars Base.Outcome Model.Security Spec.Security Proofs.SecurityP.
Import ListNotations.

(* ---- capabilities come from the caller only ---------------------------------------------------------------- *)
(* PLANNED STATEMENT (DESIGN): forall d a t, from_dict d a = Ok t -> every item's capability bits equal the caller's.
   This literal form is FALSE of the faithful model in the harmless direction: items nested below a `nest`
   transformation are built without the opt-in, so they carry `false` even when the caller passed `true`
   (C16_caps_equal_refuted).  What holds, for all documents and all nesting depths, is the exact description below;
   it implies that no bit ever exceeds the caller's (C16_caps_le_caller). *)
Theorem C16_caps_from_caller :
  forall E d a t tr, load_dict E d a = (Ok t, tr) ->
    let ot := obs_tree t in
    (* a top-level external-source item carries exactly the caller's allow_external_sources *)
    Forall (fun f => f = a_ext a) (flat_map top_flags (o_items ot)) /\
    (* every item nested below another one carries false *)
    Forall (fun f => f = false) (flat_map nested_flags (tree_nodes ot)) /\
    (* post-processing items and finalizers are never external sources *)
    flat_map all_flags (o_post ot ++ o_fin ot) = [] /\
    (* every template object at any depth carries exactly the caller's allow_template_vars and vars_allowed_paths,
       and one with a vars file exists only under a grant *)
    Forall (tpl_is E (a_tv a) (a_ap a)) (tree_tpl_caps ot).
Proof. exact caps_from_caller. Qed.
Print Assumptions C16_caps_from_caller.

Theorem C16_caps_le_caller :
  forall E d a t tr, load_dict E d a = (Ok t, tr) ->
    Forall (fun f => f = true -> a_ext a = true) (tree_ext_flags (obs_tree t)).
Proof. exact all_flags_le. Qed.
Print Assumptions C16_caps_le_caller.

Theorem C16_caps_equal_refuted :
  exists E d a t tr, load_dict E d a = (Ok t, tr) /\ a_ext a = true /\ In false (tree_ext_flags (obs_tree t)).
Proof. exact caps_equal_refuted. Qed.
Print Assumptions C16_caps_equal_refuted.

(* the same through from_yaml (allowed directories possibly derived from source_path) and through the resolver
   (no opt-in arguments at all) *)
Theorem C16_caps_from_caller_yaml :
  forall E d a src t tr, load_yaml E d a src = (Ok t, tr) ->
    Forall (fun f => f = true -> a_ext a = true) (tree_ext_flags (obs_tree t)) /\
    Forall (tpl_is E (a_tv a) (yaml_paths E (a_ap a) src)) (tree_tpl_caps (obs_tree t)).
Proof. exact caps_from_caller_yaml. Qed.
Print Assumptions C16_caps_from_caller_yaml.

Theorem C16_caps_resolver :
  forall E d spec t tr, load_resolver E d spec = (Ok t, tr) ->
    Forall (fun f => f = false) (tree_ext_flags (obs_tree t)) /\
    Forall (tpl_is E false (Some [render (removelast (real E spec))])) (tree_tpl_caps (obs_tree t)).
Proof. exact caps_resolver. Qed.
Print Assumptions C16_caps_resolver.

(* ---- non-interference: the opt-in keys of the document are irrelevant ----------------------------------------- *)
(* strip_doc removes allow_external_sources / allow_template_vars / vars_allowed_paths from every transformation
   and post-processing item (recursively through nested `items`), from every top-level finalizer, and the two
   template keys from every nested finalizer (recursively).  Loading - outcome, whole tree, effect trace - is
   unchanged.  (At the top level of the document and, for allow_external_sources, inside nested finalizers the
   keys are not ignored but rejected as unknown keys / parameters, so they are not stripped here.) *)
Theorem C16_doc_irrelevant :
  forall E d a, load_dict E (strip_doc d) a = load_dict E d a.
Proof. exact doc_irrelevant. Qed.
Print Assumptions C16_doc_irrelevant.

Theorem C16_doc_irrelevant_rel :
  forall E d d' a, same_modulo_optin_keys d d' -> load_dict E d a = load_dict E d' a.
Proof. exact doc_irrelevant_rel. Qed.
Print Assumptions C16_doc_irrelevant_rel.

(* ---- every effect sits behind a gate that only the caller or the environment opens ---------------------------- *)
(* while loading: only executions of vars files, each under allow_template_vars or the environment variable, and
   passing the allowed-path test when base directories are in force *)
Theorem C16_load_effects_gated :
  forall E d a, Forall (exec_ok E (a_tv a) (a_ap a)) (snd (load_dict E d a)).
Proof. exact load_trace_gated. Qed.
Print Assumptions C16_load_effects_gated.

(* while converting: only fetches of external sources, each under allow_external_sources or the environment variable *)
Theorem C16_convert_effects_gated :
  forall E d a t tr phs, load_dict E d a = (Ok t, tr) ->
    Forall (fun e => (exists s, e = effect_of s) /\ (a_ext a || env_on (e_ext E)) = true) (snd (convert E t phs)).
Proof. exact convert_trace_gated. Qed.
Print Assumptions C16_convert_effects_gated.

(* default arguments + environment not granting: no effect at all, at load time or in any conversion; a loaded
   pipeline contains no template with a vars file and no raised flag *)
Theorem C16_no_effect_default :
  forall E d, env_on (e_ext E) = false -> env_on (e_tv E) = false ->
    snd (load_dict E d default_args) = [] /\
    forall t, fst (load_dict E d default_args) = Ok t ->
      Forall (fun c => fst (fst c) = None) (tree_tpl_caps (obs_tree t)) /\
      Forall (fun f => f = false) (tree_ext_flags (obs_tree t)) /\
      forall phs, snd (convert E t phs) = [].
Proof. exact no_effect_default. Qed.
Print Assumptions C16_no_effect_default.

(* ... and the affected items fail with the Sigma security error exactly when first needed *)
Theorem C16_ext_use_denied :
  forall E s sel rem, env_on (e_ext E) = false -> existsb (handled sel) rem = true ->
    run_node E (NExt s sel false) rem = (SigmaErr E_Security, []).
Proof. exact ext_use_denied. Qed.
Print Assumptions C16_ext_use_denied.

Theorem C16_vars_use_denied :
  forall E ap p, env_on (e_tv E) = false -> tpl_init E false ap (Some p) = (SigmaErr E_Security, []).
Proof. exact vars_use_denied. Qed.
Print Assumptions C16_vars_use_denied.

(* the gates read the environment exactly as documented: the value is "1" or "true" in any letter case *)
Theorem C16_env_documented : forall v, env_on v = env_grants v.
Proof. exact env_on_documented. Qed.
Print Assumptions C16_env_documented.

(* ---- allowed-path containment ------------------------------------------------------------------------------- *)
(* the string test of _load_vars_from_file on realpaths implies component-wise containment: an executed vars file
   lies below one of the base directories in force.  (The converse does not hold: the base "/" admits nothing.) *)
Theorem C16_path_containment :
  forall E bases p, wf_real (real E) -> path_allowed E bases (realpath E p) = true ->
    exists b, In b bases /\ is_prefix (real E b) (real E p).
Proof. exact path_containment. Qed.
Print Assumptions C16_path_containment.

Theorem C16_exec_contained :
  forall E tv bases p o tr q, wf_real (real E) -> tpl_init E tv (Some bases) (Some p) = (o, tr) -> In (EExec q) tr ->
    q = real E p /\ (tv || env_on (e_tv E)) = true /\ exists b, In b bases /\ is_prefix (real E b) q.
Proof. exact exec_contained. Qed.
Print Assumptions C16_exec_contained.

(* a pipeline resolved from a file: whatever it contains, the only possible effects while loading are executions,
   under the environment variable, of vars files below the directory of the pipeline file *)
Theorem C16_resolver_contained :
  forall E d spec, wf_real (real E) -> (forall cs, Forall wf_comp cs -> real E (render cs) = cs) ->
    Forall (fun e => exists p, e = EExec (real E p) /\ env_on (e_tv E) = true /\
                               is_prefix (removelast (real E spec)) (real E p))
           (snd (load_resolver E d spec)).
Proof. exact resolver_contained. Qed.
Print Assumptions C16_resolver_contained.

(* ---- template evaluation ---------------------------------------------------------------------------------------- *)
(* post-processing templates and template finalizers (inline text or a file below `path`, at any nesting depth) are
   rendered inside Jinja2's sandbox: rendering adds no effect to a conversion, so with default arguments and a
   non-granting environment loading + converting has no effect whatever the template text says; a template that
   reaches for an underscore attribute (the way out of the sandbox: x.__class__, f.__globals__ ...) or calls a
   loader (`.from_yaml(`, `.from_dict(` on the pipeline object in the template's context: such a call would load items
   with the call's own arguments, not the caller's) is refused with jinja2's SecurityError instead of being evaluated.  That Jinja2's sandbox itself is tight is outside the model;
   the correspondence check observes on the real objects that every template's environment is a sandbox that
   refuses such an expression, and renders hostile templates under the audit hook. *)
Theorem C16_render_no_effect :
  forall E d t phs, snd (convert_full E d t phs) = snd (convert E t phs).
Proof. exact render_no_effect. Qed.
Print Assumptions C16_render_no_effect.

Theorem C16_no_effect_default_full :
  forall E d, env_on (e_ext E) = false -> env_on (e_tv E) = false ->
    forall t, fst (load_dict E d default_args) = Ok t -> forall phs, snd (convert_full E d t phs) = [].
Proof. exact no_effect_default_full. Qed.
Print Assumptions C16_no_effect_default_full.

Theorem C16_unsafe_template_refused :
  forall E d t phs, doc_unsafe E d = true -> fst (convert E t phs) = Ok tt ->
    fst (convert_full E d t phs) = Crash C_Sandbox.
Proof. exact unsafe_template_refused. Qed.
Print Assumptions C16_unsafe_template_refused.

(* ---- the oracle evaluated on the implementation's observations (judge bit 2) accepts whatever the model does --- *)
Theorem C16_oracle_sound :
  forall E d a o tr1 phs, wf_real (real E) -> load_dict E d a = (o, tr1) ->
    let ot := match o with Ok t => Some (obs_tree t) | _ => None end in
    let tr2 := match o with Ok t => snd (convert E t phs) | _ => [] end in
    spec_ok a (env_grants (e_ext E)) (env_grants (e_tv E)) (real E) ot (tr1 ++ tr2) false false = true.
Proof. exact model_satisfies_spec. Qed.
Print Assumptions C16_oracle_sound.

(* ---- non-vacuity ------------------------------------------------------------------------------------------- *)
Definition ex_fs : env :=
  {| e_ext := None; e_tv := Some (lit "TRUE");
     real := fun s => if str_eqb s (lit "/a/link.py") then [lit "b"; lit "v.py"]
                      else if str_eqb s (lit "/a") then [lit "a"] else if str_eqb s (lit "/b") then [lit "b"] else [lit "a"; lit "v.py"];
     loadable := fun _ => true; fetch_ok := fun _ => true; tpl_file := fun _ _ => None |}.
Definition ex_doc : yv :=
  YMap [(k_transformations, YList [YMap [(k_type, YStr t_cmd); (k_cmd, YStr (lit "id")); (k_ext, YBool true)]]);
        (k_finalizers, YList [YMap [(k_type, YStr t_nested);
           (k_finalizers, YList [YMap [(k_type, YStr t_template); (k_template, YStr (lit "x")); (k_vars, YStr (lit "/a/v.py"));
                                       (k_tv, YBool true); (k_ap, YList [YStr (lit "/")])]])]])].
(* a document with smuggled keys loads, its flags are the caller's, the vars file is executed (environment grant,
   inside the allowed directory); the symlinked path is refused; the conversion needs the command and is denied *)
Example C16_premises_inhabited :
  wf_real (real ex_fs) /\
  (exists t, load_dict ex_fs ex_doc {| a_ext := false; a_tv := false; a_ap := Some [lit "/a"] |}
             = (Ok t, [EExec [lit "a"; lit "v.py"]]) /\
             tree_ext_flags (obs_tree t) = [false] /\
             fst (convert ex_fs t [lit "u"]) = SigmaErr E_Security) /\
  path_allowed ex_fs [lit "/a"] (realpath ex_fs (lit "/a/link.py")) = false /\
  strip_doc ex_doc <> ex_doc.
Proof.
  split; [|split; [|split]].
  - intros s. unfold ex_fs, real. destruct (str_eqb s (lit "/a/link.py")); [|destruct (str_eqb s (lit "/a")); [|destruct (str_eqb s (lit "/b"))]];
      repeat constructor; try discriminate; vm_compute; intros H; repeat (destruct H as [H|H]; [discriminate|]); exact H.
  - eexists. split; [vm_compute; reflexivity|]. split; vm_compute; reflexivity.
  - vm_compute. reflexivity.
  - vm_compute. discriminate.
Qed.
