(* C17 - placeholders expand completely or conversion fails; never emitted as text.
   Only statements, each closed by `exact`, with Print Assumptions.

   FULL STATEMENT (not proved as one theorem; see the pieces below and DESIGN.md section 13, paragraph C17):
     forall c, flat_ok (c_all c) (expected groups of c) ->
               s_accepts (lhs_of c) (c_all c) (expected c) (run c) = true
   i.e. the query of every case reads back as exactly the values the specification Spec/Expand.v
   expects, or the run fails with a Sigma error when the specification demands a failure. It is false
   without the premise (C17_linking_refuted). What is proved: the expansion step itself
   (C17_cross_product, C17_replace_error, C17_handled_gone, and C17_step_spec / C17_pipeline_spec: model = specification
   for value-list and wildcard items and whole pipelines of them), the rendering guards and the read-back
   of every emitted literal (C17_no_raw_string, C17_no_raw_regex), and their composition over a whole
   run (C17_run_ok_resolved, C17_unresolved_fails). Not proved: agreement of the one-pass placeholder
   scanner ph_go with the look-ahead reader xread, and of read_query with the OR/AND joiner. Both are
   exercised on every correspondence case (judge bit 2 evaluates them on the implementation's output). *)
From Coq Require Import NArith List Bool.
From PS Require Import Base.Chars Base.Outcome Model.SString Model.PyRegex Model.Placeholder
                       Spec.Items Spec.Expand Proofs.ConvertP Proofs.PlaceholderP.
Import ListNotations.

(* replace_placeholders with callback cb = the substitution of every combination of the callback's
   results, taken over the cartesian product in placeholder order (leftmost placeholder outermost,
   each result list in its own order), every result merged. Unbounded in the value, the number of
   placeholders and the sizes of the result lists. *)
Theorem C17_cross_product :
  forall (cb : str -> outcome (list sstring)) (f : str -> list sstring) (v : sstring),
    merge v = v ->
    (forall n, In n (placeholders v) -> cb n = Ok (f n)) ->
    replace_placeholders cb v = Ok (map (fun ch => merge (subst v ch)) (cartesian (map f (ph_names v)))).
Proof. exact cross_product. Qed.
Print Assumptions C17_cross_product.

(* it fails only with the failure of the callback on one of the value's own placeholders *)
Theorem C17_replace_error :
  forall cb v, (forall l, replace_placeholders cb v <> Ok l) ->
               exists n, In n (placeholders v) /\ cb n = replace_placeholders cb v.
Proof. exact replace_error. Qed.
Print Assumptions C17_replace_error.

(* after a value-list or wildcard transformation every resulting value holds exactly the placeholders
   the transformation does not handle (include / exclude), in their original order: handled ones are
   gone from every result, the others are all still there as placeholder objects - for strings,
   keywords and regular expressions alike *)
Theorem C17_handled_gone :
  forall vs t x rs, item_ok t = true -> base_kind t -> apply_value vs t x = Ok rs ->
    Forall (fun r => placeholders (vparts r) =
                     filter (fun n => negb (handled t n)) (placeholders (vparts x))) rs.
Proof. exact handled_gone. Qed.
Print Assumptions C17_handled_gone.

(* one value-list / wildcard transformation of the model is the specification's step Spec.Expand.s_step
   (stated on items, independently of the recursion of the code: all combinations of the tables of the
   handled placeholders only, leftmost placeholder outermost, tables in configuration order, unhandled
   placeholders kept): same values in the same order, and it fails exactly when the specification demands
   a failure (missing / empty / ill-typed table, or an expanded regular expression that does not compile) *)
Theorem C17_step_spec :
  forall vs t x, item_ok t = true -> base_kind t -> has_parts x ->
    match x with VR v => compile_ok v = true | _ => True end ->
    match apply_value vs t x with
    | Ok rs => s_step (tabs_of vs) (to_sitem t) (sv x) = Some (map sv rs)
    | SigmaErr _ => s_step (tabs_of vs) (to_sitem t) (sv x) = None
    | Crash _ => False
    end.
Proof. exact (fun vs t x Hok Hk _ => base_step_spec vs t x Hok Hk). Qed.
Print Assumptions C17_step_spec.

(* ... and so is every pipeline of such items, of any length and in any order, on any list of string,
   keyword and (compiled) regular-expression values: the model's values after the pipeline are the
   specification's values, in the same order; it fails exactly when the specification demands it *)
Theorem C17_pipeline_spec :
  forall vs field ts, Forall (fun t => item_ok t = true /\ base_kind t) ts ->
    forall l, Forall good l ->
    match apply_pipeline vs ts l with
    | Ok rs => s_pipeline (tabs_of vs) field (map to_sitem ts) (map sv l) = Some (map sv rs)
    | SigmaErr _ => s_pipeline (tabs_of vs) field (map to_sitem ts) (map sv l) = None
    | Crash _ => False
    end.
Proof. exact pipeline_spec. Qed.
Print Assumptions C17_pipeline_spec.

(* strings and keywords: a literal is only emitted for a placeholder-free value, and under a well-formed
   escaping configuration it reads back as exactly the value's characters and wildcards; so every
   percent sign in it is a literal character of the value *)
Theorem C17_no_raw_string :
  forall K v q, wf_escaping K = true -> convert K v = Ok q ->
    tread K q = Some (filter_items K (items v)) /\ forall n, ~ In (Ph n) (items v).
Proof. exact string_no_raw. Qed.
Print Assumptions C17_no_raw_string.

(* regular expressions: the same *)
Theorem C17_no_raw_regex :
  forall v q, render_re v = Ok q -> rx_unescape q = Some (to_plain false v) /\ placeholders v = [].
Proof. exact regex_no_raw. Qed.
Print Assumptions C17_no_raw_regex.

(* a whole run that produces a query has resolved every placeholder of every value *)
Theorem C17_run_ok_resolved :
  forall c q, run c = Ok q ->
    exists vals, run_pipeline c = Ok vals /\ Forall (fun x => placeholders (vparts x) = []) vals.
Proof. exact run_ok_resolved. Qed.
Print Assumptions C17_run_ok_resolved.

(* and if the pipeline leaves a placeholder in any string, keyword or regular-expression value the run
   fails with a Sigma error (SigmaPlaceholderError, or the SigmaValueError of a query expression that
   needs a field) - it never yields a query and never a non-Sigma exception *)
Theorem C17_unresolved_fails :
  forall c vals, run_pipeline c = Ok vals ->
    Exists (fun x => placeholders (vparts x) <> []) vals ->
    exists e, run c = SigmaErr e /\ (e = E_Placeholder \/ e = E_Value).
Proof. exact unresolved_fails. Qed.
Print Assumptions C17_unresolved_fails.

(* finding C17-F1: under `all` the replacements of one value are AND-linked with everything else, which the
   specification rejects; the same case without `all` is accepted *)
Theorem C17_linking_refuted :
  exists c q, run c = Ok q /\ s_accepts (lhs_of c) (c_all c) (expected c) (Ok q) = false
              /\ s_accepts (lhs_of c) false (expected c)
                   (run {| c_field := c_field c; c_re := c_re c; c_all := false; c_mods := c_mods c;
                           c_values := c_values c; c_items := c_items c; c_vars := c_vars c |}) = true.
Proof. exact linking_refuted. Qed.
Print Assumptions C17_linking_refuted.

(* non-vacuity: premises are inhabited by a non-trivial value, callback and configuration *)
Example C17_premises_inhabited :
  let v := [PStr [97]; PPh [120]; PMulti; PPh [121]] in
  merge v = v /\ wf_escaping K17 = true /\
  replace_placeholders (fun n => Ok [[PStr n]; [PMulti]]) v =
    Ok [[PStr [97; 120]; PMulti; PStr [121]]; [PStr [97; 120]; PMulti; PMulti];
        [PStr [97]; PMulti; PMulti; PStr [121]]; [PStr [97]; PMulti; PMulti; PMulti]].
Proof. repeat split; reflexivity. Qed.
