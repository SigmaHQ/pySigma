(* C18 - CIDR expansion matches exactly the addresses of the network.

   Vocabulary (Spec/Net.v, Model/Cidr.v):
     wf_net bits base len   len <= bits, base < 2^bits, host bits of base clear
     in_net bits base len a base <= a < base + 2^(bits-len)
     pat_matches p s        the pattern p, read as a Sigma string ('*' = wildcard), matches the text s
     show4 / show6          dotted-quad text / RFC 5952 text of an address
     expand4 / expand6      the pattern lists of SigmaCIDRExpression.expand() *)
From Coq Require Import NArith List Bool.
From PS Require Import Base.Chars Base.Outcome Model.SString Spec.Items Model.Cidr Spec.Net Proofs.CidrP Proofs.Cidr6P Proofs.Cidr6CoverP.
Import ListNotations.
Open Scope N_scope.

(* IPv4, exactness: a dotted-quad address is matched by some produced pattern iff it lies in the network *)
Theorem C18_v4_exact :
  forall base len, wf_net 32 base len -> forall a, a < 2 ^ 32 ->
    ((exists p, In p (expand4 base len) /\ pat_matches p (show4 a) = true) <-> in_net 32 base len a).
Proof. exact v4_exact. Qed.
Print Assumptions C18_v4_exact.

(* IPv4, irredundancy: every address of the network is matched by exactly one pattern (no two patterns
   overlap), addresses outside by none; every pattern matches some address of the network (so removing
   any pattern loses addresses); the list has no duplicates *)
Theorem C18_v4_irredundant :
  forall base len, wf_net 32 base len ->
    (forall a, a < 2 ^ 32 ->
       length (filter (fun p => pat_matches p (show4 a)) (expand4 base len))
       = if in_netb 32 base len a then 1%nat else 0%nat) /\
    (forall p, In p (expand4 base len) ->
       exists a, a < 2 ^ 32 /\ in_net 32 base len a /\ pat_matches p (show4 a) = true) /\
    NoDup (expand4 base len).
Proof. exact (fun base len H => conj (v4_exact_unique base len H) (conj (v4_witness base len H) (v4_nodup base len H))). Qed.
Print Assumptions C18_v4_irredundant.

(* IPv4, count: 2^((8 - len mod 8) mod 8) patterns *)
Theorem C18_v4_count :
  forall base len, wf_net 32 base len ->
    length (expand4 base len) = N.to_nat (2 ^ ((8 - len mod 8) mod 8)).
Proof. exact (fun base len _ => v4_count base len). Qed.
Print Assumptions C18_v4_count.

(* the reader used by the correspondence check to decide exactness on integer ranges is correct:
   a pattern it accepts matches exactly the addresses of the range it returns *)
Theorem C18_pattern_range4_correct :
  forall p lo hi, pattern_range4 p = Some (lo, hi) ->
    forall a, a < 2 ^ 32 -> (pat_matches p (show4 a) = true <-> lo <= a /\ a < hi).
Proof. exact pattern_range4_ok. Qed.
Print Assumptions C18_pattern_range4_correct.

(* soundness of the oracle that decides IPv4 exactness on the implementation's output in the
   correspondence check (bit 2): if it accepts a pattern list for a network, every address is matched
   by exactly one pattern when it lies in the network and by none otherwise *)
Theorem C18_exact_cover4_sound :
  forall base len pats, exact_cover4 base len pats = true ->
    forall a, a < 2 ^ 32 ->
      length (filter (fun p => pat_matches p (show4 a)) pats)
      = if in_netb 32 base len a then 1%nat else 0%nat.
Proof. exact exact_cover4_sound. Qed.
Print Assumptions C18_exact_cover4_sound.

(* IPv6.  Textual form: "the address" always means the compressed text ipaddress prints (RFC 5952: lower-case
   hex groups without leading zeros, the leftmost longest run of two or more zero groups written "::"),
   i.e. show6. The exploded form (2001:0db8:0000:...) and other spellings are NOT meant and are in
   general not matched by the patterns.

   FULL STATEMENT (false of the faithful model, see C18_v6_cover_refuted):
     forall a len x, wf_net 128 a len -> in_net 128 a len x ->
       exists pats, expand6 a len None = Ok pats /\ covered pats (show6 x) = true
   It holds - and is proved, C18_v6_cover - on the domain fixed_nonzero6: every completely fixed 16-bit
   group of every nibble-aligned subnet the expansion enumerates is non-zero (then no fixed group can
   take part in "::" compression, the texts of all addresses of a subnet share the fixed groups and the
   fixed nibbles of the partly fixed group, and the texts of the first and the last address differ
   right after them). The complement of that domain is the input class of known finding D20.
   A scoped /128 is excluded: its single pattern is the address text with the scope id. *)
Theorem C18_v6_cover :
  forall a len sc x,
    wf_net 128 a len -> (len = 128 -> sc = None) -> fixed_nonzero6 a len = true -> in_net 128 a len x ->
    exists pats, expand6 a len sc = Ok pats /\ covered pats (show6 x) = true.
Proof. exact (fun a len sc x Hwf Hsc Hfix => v6_cover a len sc x Hwf Hsc (fun _ => Hfix)). Qed.
Print Assumptions C18_v6_cover.

(* IPv6 patterns are NOT exact, not even on that domain: they also match addresses outside the network
   (2001:db8::/33 yields "2001:db8:*", which matches 2001:db8:8000::; 1234:5678:1:ab00::/56 yields
   "1234:5678:1:ab*", which matches 1234:5678:1:ab::). The property only demands coverage for IPv6; the
   over-approximation is recorded here as a proved fact about the code, replayed on the real code. *)
Theorem C18_v6_exact_refuted :
  exists a len y pats,
    wf_net 128 a len /\ fixed_nonzero6 a len = true /\ y < 2 ^ 128 /\ ~ in_net 128 a len y /\
    expand6 a len None = Ok pats /\ covered pats (show6 y) = true.
Proof. exact v6_exact_refuted. Qed.
Print Assumptions C18_v6_exact_refuted.

(* the prefix lengths 0 and 128 need no premise on the groups (C18_v6_cover asks fixed_nonzero6) *)
Theorem C18_v6_cover_partial :
  forall a len x, wf_net 128 a len -> len = 0 \/ len = 128 -> in_net 128 a len x ->
    exists pats, expand6 a len None = Ok pats /\ covered pats (show6 x) = true.
Proof. exact v6_cover_trivial. Qed.
Print Assumptions C18_v6_cover_partial.

Theorem C18_v6_cover_refuted :
  exists a len x pats,
    wf_net 128 a len /\ in_net 128 a len x /\
    expand6 a len None = Ok pats /\ covered pats (show6 x) = false.
Proof. exact v6_cover_refuted. Qed.
Print Assumptions C18_v6_cover_refuted.

(* expand() raises nothing on a validated network (holds since the repair of D29: before it a scoped
   /128 such as fe80::1%eth0/128 raised IndexError) *)
Theorem C18_expand_total : forall n, exists pats, expand n = Ok pats.
Proof. exact expand_total. Qed.
Print Assumptions C18_expand_total.

(* backend rendering of the expansion (no cidr_expression): whatever convert_or_as_in and
   in_expressions_allow_wildcards are, the query the model renders - a value list only when the list may
   hold the patterns, else the (grouped) OR - read with the semantics the backend declares for value lists
   (literals unless wildcards are allowed) matches exactly the texts the pattern list matches.
   Premise: the patterns consist of plain characters and '*' (checked per case by the correspondence). *)
Theorem C18_render_semantics :
  forall or_as_in allow_wild pats t,
    forallb pat_chars pats = true ->
    rquery_matches allow_wild (render_struct or_as_in allow_wild pats) t = covered pats t.
Proof. exact render_semantics. Qed.
Print Assumptions C18_render_semantics.

(* non-vacuity: the premises are inhabited by a non-trivial network: 10.0.0.0/7 gives the two patterns "10." and "11." followed by the wildcard *)
Example C18_premises_inhabited :
  wf_net 32 167772160 7 /\ expand4 167772160 7 = [[49;48;46;42]; [49;49;46;42]].
Proof. split; [repeat split; vm_compute; congruence | vm_compute; reflexivity]. Qed.
