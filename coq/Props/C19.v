(* C19 - validation only observes: it is exact about references and changes nothing.
   Only statements, each closed by `exact`, with Print Assumptions.

   Model: Model/Validators.v (SigmaValidator.validate_rules with exclusions over a list of validator
   instances with their own tables; DanglingDetection / DanglingCondition over the unpostprocessed parse
   tree; IdentifierExistence / IdentifierUniqueness / DuplicateTitle / DuplicateFilename).
   Specification: Spec/ValidatorsSpec.v (Glob, Selected, Refers, HasSel, Unmatched, group, two_paths,
   ieq / MEquiv).  `validate E vs rules`: E exclusion table, vs the validator instances in the order
   the set happens to be iterated, rules in the order validated; the result is Ok issues or the
   SigmaConditionError the reference validators raise on a condition that does not parse. *)
From Coq Require Import NArith List Bool Permutation.
From PS Require Import Base.Chars Base.Outcome Model.VCond Model.Validators Spec.ValidatorsSpec Proofs.ValidatorsP Model.TagValidators Proofs.TagValidatorsP.
Import ListNotations.

(* the regular expression built from a selector pattern selects exactly the names the pattern
   denotes (glob reading of '*', "them", underscore rule) *)
Theorem C19_selector_exact : forall D p n, In n (resolve D p) <-> In n D /\ Selected p n.
Proof. exact resolve_spec. Qed.
Print Assumptions C19_selector_exact.

(* a detection is reported as unused if and only if no condition of the rule refers to it by name
   or by a matching selector (r: the rule, validated by a run in which the validator is present and
   not excluded for it; ts: the parse trees of its conditions) *)
Theorem C19_unused_iff :
  forall E vs rules l k n,
    validate E vs rules = Ok l ->
    (In (IUnused k n) l <->
     exists r ts, In r rules /\ r_key r = k /\ In VUnused vs /\ excluded E r VUnused = false /\
                  r_corr r = false /\ parse_all (r_conds r) = Ok ts /\
                  In n (r_dets r) /\ ~ exists t, In t ts /\ Refers (r_dets r) t n).
Proof. exact validate_unused_iff. Qed.
Print Assumptions C19_unused_iff.

(* a selector is reported as dangling if and only if it occurs in a condition and matches no detection *)
Theorem C19_dangling_iff :
  forall E vs rules l k p,
    validate E vs rules = Ok l ->
    (In (IDangling k p) l <->
     exists r ts, In r rules /\ r_key r = k /\ In VDangling vs /\ excluded E r VDangling = false /\
                  r_corr r = false /\ parse_all (r_conds r) = Ok ts /\
                  (exists t, In t ts /\ HasSel t p) /\ Unmatched (r_dets r) p).
Proof. exact validate_dangling_iff. Qed.
Print Assumptions C19_dangling_iff.

(* per rule, each unused detection / dangling selector is reported exactly once *)
Theorem C19_reference_issues_once :
  forall r ts, r_corr r = false -> parse_all (r_conds r) = Ok ts ->
    (forall l, v_check VUnused r = Ok l -> NoDup l) /\ (forall l, v_check VDangling r = Ok l -> NoDup l).
Proof. exact (fun r _ _ _ => conj (v_check_NoDup VUnused r) (v_check_NoDup VDangling r)). Qed.
Print Assumptions C19_reference_issues_once.

(* identifier, title and file-name issues name exactly the groups of (not excluded) rules that share
   the value: a group is reported iff it has at least two members; for file names iff the name is
   used under at least two different paths (two rules of the same file are not a collision) *)
Theorem C19_groups_exact :
  forall E vs rules l,
    validate E vs rules = Ok l ->
    (forall ks x, In (IIdColl ks x) l <-> In VIdUniq vs /\ ks = group E VIdUniq rules x /\ (2 <= length ks)%nat) /\
    (forall ks x, In (ITitle ks x) l <-> In VTitle vs /\ ks = group E VTitle rules x /\ (2 <= length ks)%nat) /\
    (forall ks x, In (IFile ks x) l <-> In VFile vs /\ ks = group E VFile rules x /\ two_paths E rules x).
Proof. exact groups_exact. Qed.
Print Assumptions C19_groups_exact.

(* for all iteration orders of the validator set and all orders of the rules: the same multiset of
   issues (a group being a set of rules), and the same decision whether an error is raised *)
Theorem C19_order_independent :
  forall E vs vs' rules rules',
    Permutation vs vs' -> Permutation rules rules' ->
    match validate E vs rules, validate E vs' rules' with
    | Ok l, Ok l' => MEquiv l l'
    | Ok _, _ | _, Ok _ => False
    | _, _ => True
    end.
Proof. exact order_independent. Qed.
Print Assumptions C19_order_independent.

(* exclusions suppress exactly the excluded validator for the excluded rule id: the issues of kind v
   in a run with exclusion table E are, in the same order, the issues validator v reports alone and
   without exclusions on the rules it is not excluded for *)
Theorem C19_exclusions_exact :
  forall E vs rules l v,
    validate E vs rules = Ok l -> NoDup vs -> In v vs ->
    validate [] [v] (seen E v rules) = Ok (filter (of_kind v) l).
Proof. exact exclusions_exact. Qed.
Print Assumptions C19_exclusions_exact.

(* validation raises iff a reference validator that runs on a rule meets a condition that does not parse *)
Theorem C19_raises_iff :
  forall E vs rules,
    (exists l, validate E vs rules = Ok l) <->
    forall r v, In r rules -> In v vs -> excluded E r v = false -> exists l, v_check v r = Ok l.
Proof. exact validate_ok_iff. Qed.
Print Assumptions C19_raises_iff.

Theorem C19_only_reference_validators_raise :
  forall v r, (forall l, v_check v r <> Ok l) ->
    (v = VUnused \/ v = VDangling) /\ r_corr r = false /\ forall ts, parse_all (r_conds r) <> Ok ts.
Proof. exact v_check_raises. Qed.
Print Assumptions C19_only_reference_validators_raise.

(* with distinct validator classes and distinct rule objects no issue is reported twice (so every
   `In` above is "exactly once") *)
Theorem C19_no_duplicates :
  forall E vs rules l,
    validate E vs rules = Ok l -> NoDup vs -> NoDup (map r_key rules) -> NoDup l.
Proof. exact validate_NoDup. Qed.
Print Assumptions C19_no_duplicates.

(* the executable tests the specification oracle of the correspondence check is built from decide
   the declarative notions used in the theorems above *)
Theorem C19_oracle_atoms :
  (forall p n, selectedb p n = true <-> Selected p n) /\
  (forall D n t, refersb D n t = true <-> Refers D t n) /\
  (forall t p, In p (sel_pats t) <-> HasSel t p) /\
  (forall D p, unmatchedb D p = true <-> Unmatched D p).
Proof. exact (conj selectedb_Selected (conj refersb_Refers (conj sel_pats_HasSel unmatchedb_Unmatched))). Qed.
Print Assumptions C19_oracle_atoms.

(* validator objects live across rules and across runs.  rule_part E vs r (Proofs/ValidatorsP.v) is
   what the validators that run on r return for r, computed from r alone.  Both calls of
   validate_rules on the same SigmaValidator return exactly these per-rule issues, rule by rule,
   followed by finalisation issues (which are never attached to a single rule): what a rule is told
   does not depend on the rules validated before it, on their ids, or on an earlier run *)
Theorem C19_rule_issues_independent_of_history :
  forall E vs rules l1 l2,
    validate_twice E vs rules = Ok (l1, l2) ->
    exists F1 F2,
      l1 = flat_map (rule_part E vs) rules ++ F1 /\ l2 = flat_map (rule_part E vs) rules ++ F2 /\
      Forall (fun i => ikey i = None) F1 /\ Forall (fun i => ikey i = None) F2.
Proof. exact second_run_per_rule. Qed.
Print Assumptions C19_rule_issues_independent_of_history.

(* ... and they are the issues the rule gets when it is validated alone *)
Theorem C19_rule_issues_as_if_alone :
  forall E vs rules l r,
    validate E vs rules = Ok l -> In r rules ->
    validate E vs [r] = Ok (rule_part E vs r ++ final_part E vs [r]) /\
    (forall i, In i (rule_part E vs r) -> In i l).
Proof. exact rule_part_alone. Qed.
Print Assumptions C19_rule_issues_as_if_alone.

(* validation only observes (tag validators, Model/TagValidators.v): the model of validator.validate
   returns the issues together with the rule's tags as the validator leaves them, the next validator
   sees what the previous one left; for every set and order of tag validators the tags come back as
   they were ... *)
Theorem C19_tags_observed_only : forall vs tags, snd (validate_tags vs tags) = tags.
Proof. exact tags_unchanged. Qed.
Print Assumptions C19_tags_observed_only.

(* ... hence every validator judges the source tags and the issues do not depend on the validator order *)
Theorem C19_tags_order_independent :
  forall vs vs' tags, Permutation vs vs' ->
    Permutation (fst (validate_tags vs tags)) (fst (validate_tags vs' tags)) /\
    snd (validate_tags vs tags) = snd (validate_tags vs' tags).
Proof. exact tags_order_independent. Qed.
Print Assumptions C19_tags_order_independent.

(* the TLP check is exact and case-sensitive: reported iff the tag is in the tlp namespace and its
   name, as written, is not a label of one of the TLP validators in the set *)
Theorem C19_tlp_exact :
  forall vs tags t,
    In (TITlp t) (fst (validate_tags vs tags)) <->
    In t tags /\ t_ns t = s_tlp /\
    exists v allowed, In v vs /\ tlp_allowed v = Some allowed /\ ~ In (t_name t) allowed.
Proof. exact tlp_exact. Qed.
Print Assumptions C19_tlp_exact.

(* non-vacuity: a collection on which every kind of issue arises *)
Open Scope N_scope.
Definition ex_rule (k : N) (i : option str) (t : str) (p : list str) (d : list str) (c : str) : rule :=
  {| r_key := k; r_corr := false; r_id := i; r_title := Some t; r_path := Some p; r_dets := d; r_conds := [c] |}.
Example C19_premises_inhabited :
  validate [] [VUnused; VDangling; VIdExist; VIdUniq; VTitle; VFile]
    [ ex_rule 0 (Some [49]) [84] [[100]; [97]] [[97]; [95; 98]] [49; 32; 111; 102; 32; 116; 104; 101; 109];   (* "1 of them" *)
      ex_rule 1 (Some [49]) [84] [[101]; [97]] [[97]] [97; 32; 97; 110; 100; 32; 49; 32; 111; 102; 32; 122; 42]; (* "a and 1 of z*" *)
      ex_rule 2 None [85] [[101]; [97]] [[110; 111; 116; 101]] [110; 111; 116; 101] ]                       (* "note" *)
  = Ok [ IUnused 0 [95; 98]; IDangling 1 [122; 42]; INoId 2;
         IIdColl [0; 1] [49]; ITitle [0; 1] [84]; IFile [0; 1; 2] [97] ].
Proof. vm_compute. reflexivity. Qed.
