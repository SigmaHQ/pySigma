(* C20 - output is byte-identical across processes, hash seeds and random draws.
   Only statements, each closed by `exact`/`apply` of a lemma of Proofs/, with Print Assumptions.

   Model/Determinism.v lists the places of the library where the iteration order of a set or a draw of
   the random module can flow into queries, error records or validation issues.  Iteration order is an
   arbitrary O : order (any function with Permutation (ord O l) l), drawn identifiers are arbitrary
   strings.  The theorems say that no modelled output depends on O, and - for fresh draws - none on the
   drawn identifiers. *)
From Coq Require Import NArith List Bool Permutation.
From PS Require Import Base.Chars Model.Determinism Spec.DetSpec Proofs.DeterminismP Proofs.NamesP Proofs.TrackingP Proofs.RedrawP.
Import ListNotations.

(* ---- iteration order ------------------------------------------------------------------- *)

(* field-name mappings (one-to-many targets are lists: their order is the order of the pipeline file),
   tracking of the mappings in sets, nested pipelines merging their tracking into the outer one, and the
   strict-mapping check reading the tracking: the final field names of the rule, the error message, the
   source->targets dict are equal for all iteration orders; the reverse dict is equal at every key *)
Theorem C20_order_free :
  forall O O' nested mps dets,
    let '(d, m, st) := strict_run O nested mps dets in
    let '(d', m', st') := strict_run O' nested mps dets in
    d = d' /\ m = m' /\ fst st = fst st' /\ forall k, lookup k (snd st) = lookup k (snd st').
Proof. exact strict_run_order_free. Qed.
Print Assumptions C20_order_free.

(* one tracking operation, from any state *)
Theorem C20_tracking_order_free :
  forall O O' st s t,
    let st1 := add_mapping O st s t in let st2 := add_mapping O' st s t in
    fst st1 = fst st2 /\ forall k, lookup k (snd st1) = lookup k (snd st2).
Proof. exact add_mapping_order_free. Qed.
Print Assumptions C20_tracking_order_free.

(* the reverse-mapping update before the repair (loop variable used after the loop over a set) *)
Theorem C20_tracking_old_refuted :
  exists O O' st s t k,
    lookup k (snd (add_mapping_old O st s t)) <> lookup k (snd (add_mapping_old O' st s t)).
Proof. exact tracking_old_refuted. Qed.
Print Assumptions C20_tracking_old_refuted.

(* error messages that list the elements of a set (unmapped fields, unreferenced condition items,
   invalid correlation condition items) *)
Theorem C20_messages_order_free :
  forall O O' s keys refids unknown,
    sorted_join O s = sorted_join O' s /\
    unref_msg O keys refids = unref_msg O' keys refids /\
    corr_msg O unknown = corr_msg O' unknown.
Proof.
  intros. split; [apply sorted_join_order_free | split; [apply unref_msg_order_free | apply corr_msg_order_free]].
Qed.
Print Assumptions C20_messages_order_free.

(* SigmaCorrelationCondition.from_dict finds the operator by iterating the set operators() and taking the
   first operator that is a key of the condition dict.  The whole function (which of the two checks fails,
   error text, operator and count) is independent of the iteration order - because the check "exactly one
   operator key" counts ALL keys, whatever their value *)
Theorem C20_corr_condition_order_free :
  forall O O' d, corr_from_dict O d = corr_from_dict O' d.
Proof. exact corr_from_dict_order_free. Qed.
Print Assumptions C20_corr_condition_order_free.

(* if the check ignores null-valued items ({gte: 2, lte: null}) the operator found depends on the order *)
Theorem C20_corr_condition_weak_check_refuted :
  exists O O' d, corr_from_dict_weak O d <> corr_from_dict_weak O' d.
Proof. exact corr_from_dict_weak_refuted. Qed.
Print Assumptions C20_corr_condition_weak_check_refuted.

(* FULL STATEMENT for the code before the repair (D21) is false: the join without sorted() *)
Theorem C20_errmsg_refuted : exists O O' s, unsorted_join O s <> unsorted_join O' s.
Proof. exact unsorted_join_refuted. Qed.
Print Assumptions C20_errmsg_refuted.

(* regular expression flags: the compiled flag word and the rendered (?ims) prefix *)
Theorem C20_regex_flags_order_free :
  forall O O' fl, py_flags O fl = py_flags O' fl /\ flag_prefix O fl = flag_prefix O' fl.
Proof. intros. split; [apply py_flags_order_free | apply flag_prefix_order_free]. Qed.
Print Assumptions C20_regex_flags_order_free.

(* names reported by the dangling detection / dangling condition validators *)
Theorem C20_issue_names_order_free :
  forall O O' d r, dangling_names O d r = dangling_names O' d r /\ unknown_refs O r = unknown_refs O' r.
Proof. intros. split; [apply dangling_names_order_free | apply unknown_refs_order_free]. Qed.
Print Assumptions C20_issue_names_order_free.

(* ---- random draws ---------------------------------------------------------------------- *)

(* FULL STATEMENT (false of the faithful model, see the three refutations below):
     forall r PF PF' CA CA', map snd PF = map snd PF' -> map snd CA = map snd CA' ->
       names_run r PF CA = names_run r PF' CA'
   proved part: fresh draws (freshb: equal length, leading underscore, no star, pairwise different, no
   detection name collides, the rule neither names nor matches - by a pattern starting with '_' - a
   drawn name, filters only name their own detections).  Then the resolved condition equals the
   nameless specification: rule condition AND every filter condition resolved in the filter's own
   name space, with the added conditions in front. *)
Theorem C20_no_internal_ids_partial :
  forall L r PF CA,
    freshb L r PF CA = true ->
    names_run r PF CA = spec_names r (map snd PF) (map snd CA).
Proof. exact names_spec. Qed.
Print Assumptions C20_no_internal_ids_partial.

Theorem C20_draw_free_partial :
  forall L r PF PF' CA CA',
    map snd PF = map snd PF' -> map snd CA = map snd CA' ->
    freshb L r PF CA = true -> freshb L r PF' CA' = true ->
    names_run r PF CA = names_run r PF' CA'.
Proof. exact names_draw_free. Qed.
Print Assumptions C20_draw_free_partial.

(* identifiers only name detections: every atom of a result is the content of a detection of the rule,
   of a filter or of an added condition - never a name *)
Theorem C20_atoms_are_contents :
  forall r PF CA q,
    NoDup (map fst (all_dets r PF CA)) -> names_run r PF CA = RQ q ->
    forall a, In a (atoms q) -> In a (map snd (all_dets r PF CA)).
Proof. exact names_atoms_contents. Qed.
Print Assumptions C20_atoms_are_contents.

(* outside the premise: a rule-level pattern starting with '_' (known finding C20-F1) *)
Theorem C20_draw_underscore_refuted :
  exists r CA CA', map snd CA = map snd CA' /\ names_run r [] CA <> names_run r [] CA'.
Proof. exact names_underscore_refuted. Qed.
Print Assumptions C20_draw_underscore_refuted.

(* outside the premise: a filter naming a detection it does not define; the error text contains the
   drawn prefix (known finding C20-F2) *)
Theorem C20_filter_error_text_refuted :
  exists r PF PF', map snd PF = map snd PF' /\ names_run r PF [] <> names_run r PF' [].
Proof. exact names_filter_error_refuted. Qed.
Print Assumptions C20_filter_error_text_refuted.

(* outside the premise: a draw equal to a detection name of the rule (probability 26^-10, D16) *)
Theorem C20_draw_collision_refuted :
  exists r CA CA', map snd CA = map snd CA' /\ names_run r [] CA <> names_run r [] CA'.
Proof. exact names_collision_refuted. Qed.
Print Assumptions C20_draw_collision_refuted.

(* ---- adversarial draw sequences for filter prefixes --------------------------------------- *)

(* the redraw loop of SigmaFilter.apply_on_rule (draw until no detection name of the rule starts with the
   prefix), run on ANY candidate sequence per filter application - the same draw again and again, the same
   draw first in every application (random module re-seeded before each apply_filters call), earlier
   prefixes coming back - accepts only prefixes that satisfy `fresh`.  The premise is draw independent:
   shape of the candidates (what random.choices(ascii_lowercase, k=10) can return), unique dict keys, the
   rule condition names no identifier / pattern starting with '_', every filter defines a detection and
   only names its own *)
Theorem C20_redraw_makes_fresh :
  forall L r streams fs ch,
    choose streams fs r = Some ch -> static_okb L r streams fs = true ->
    freshb L r (combine (map fst ch) fs) [] = true.
Proof. exact redraw_makes_fresh. Qed.
Print Assumptions C20_redraw_makes_fresh.

(* hence, for every draw sequence on which the loop terminates, a rule with any number of filters (same
   or different detection names, `them` and wildcard selectors) resolves to the nameless specification *)
Theorem C20_filters_any_draw_sequence :
  forall L r streams fs ch,
    choose streams fs r = Some ch -> static_okb L r streams fs = true ->
    names_run r (combine (map fst ch) fs) [] = spec_names r fs [].
Proof. exact filters_any_draws. Qed.
Print Assumptions C20_filters_any_draw_sequence.

Theorem C20_filters_draw_sequence_free :
  forall L r fs streams streams' ch ch',
    choose streams fs r = Some ch -> choose streams' fs r = Some ch' ->
    static_okb L r streams fs = true -> static_okb L r streams' fs = true ->
    names_run r (combine (map fst ch) fs) [] = names_run r (combine (map fst ch') fs) [].
Proof. exact filters_draw_sequence_free. Qed.
Print Assumptions C20_filters_draw_sequence_free.

(* with the weaker acceptance test "none of this filter's own renamed identifiers exists yet" two filters
   with different detection names can share a prefix, and the result depends on the draw sequence *)
Theorem C20_weak_redraw_refuted :
  exists r fs streams streams' ch ch',
    choose_weak streams fs r = Some ch /\ choose_weak streams' fs r = Some ch' /\
    static_okb 16 r streams fs = true /\ static_okb 16 r streams' fs = true /\
    names_run r (combine (map fst ch) fs) [] <> names_run r (combine (map fst ch') fs) [].
Proof. exact weak_redraw_refuted. Qed.
Print Assumptions C20_weak_redraw_refuted.

(* non-vacuity: the premise holds for a rule with a selector, two filters (one using `them`) and two
   added conditions *)
Example C20_premises_inhabited :
  freshb 16 w_rule4 [(dn s_filt 97, w_filter_ok); (dn s_filt 98, w_filter_ok)]
            [(dn s_cond 97, ([97; 48], false)); (dn s_cond 98, ([97; 49], true))] = true.
Proof. exact fresh_inhabited. Qed.
Example C20_redraw_example :
  (option_map (map fst) (choose [[w_pa]; [w_pa; w_pb]] [w_fa; w_fb] w_rule2) = Some [w_pa; w_pb])
  /\ (static_okb 16 w_rule2 [[w_pa]; [w_pa; w_pb]] [w_fa; w_fb] = true).
Proof. split; [exact redraw_same_draw_first | vm_compute; reflexivity]. Qed.
